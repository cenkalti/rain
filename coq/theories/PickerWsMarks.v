(* The stalled-download marks of the peer half stay consistent along every history of the web-seed model. *)
From RainV Require Import Lib Picker PickerProofs PickerWs PickerWsProofs PickerMarks.

Theorem wstep_minv s o s' : Inv3 s -> MInv (base s) -> wstep s o = Some s' -> MInv (base s').
Proof.
  intros (I & P & A) M H. destruct (wstep_sim s o s' I H) as (_ & [E|[(o' & E)|(pe & i & af & [Hr _] & D & E)]]).
  - rewrite E. exact M.
  - exact (pstep_minv _ _ _ P M E).
  - rewrite E. apply assign_minv; assumption.
Qed.

(* every history of the web-seed model keeps the marks consistent *)
Theorem reachable_marks_ws ps seq md nsrc mws ops s :
  Forall (fun p => p_req p = [] /\ p_having p = [] /\ p_snub p = [] /\ p_chok p = []) ps ->
  run_wops (init_ws ps seq md nsrc mws) ops = Some s -> MInv (base s).
Proof.
  intros H0 H. apply (run_wops_inv (fun s => Inv3 s /\ MInv (base s))) in H; [apply H| |split].
  - intros s1 o s2 [J M] E. split; [exact (wstep_inv _ _ _ J E)|exact (wstep_minv _ _ _ J M E)].
  - apply init_inv3. eapply Forall_impl; [|exact H0]. intros p (A & B & _). split; assumption.
  - apply (init_minv ps seq md). eapply Forall_impl; [|exact H0]. intros p (_ & _ & A & B). split; assumption.
Qed.
