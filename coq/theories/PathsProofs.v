(* Path confinement over the component-level model of Clean/Join.  The clean form of a ..-free path
   is the [render] of its kept components ([clean_nodd], [join_nodd]); confinement, injectivity of
   [open_path] and the tar check are read off that form. *)
From RainV Require Import Lib Paths.

Lemma str_eqb_eq : forall a b, str_eqb a b = true <-> a = b.
Proof.
  induction a as [|x r IH]; intros [|y r']; cbn [str_eqb]; split; intros H; try reflexivity; try discriminate.
  - apply andb_prop in H as [H1 H2]. apply IH in H2. f_equal; [lia|assumption].
  - inversion H; subst. rewrite Z.eqb_refl. cbn. apply IH. reflexivity.
Qed.

Definition no_slash (s : str) : Prop := Forall (fun b => b <> slash) s.

(* a component Clean keeps: not "", ".", "..", and slash-free *)
Definition normal (c : str) : Prop :=
  is_empty c = false /\ is_dot c = false /\ is_dotdot c = false /\ no_slash c.

Lemma split_go_noslash : forall a cur, no_slash a -> split_go cur a = [rev cur ++ a].
Proof.
  induction a as [|b r IH]; intros cur H; cbn [split_go]; [rewrite app_nil_r; reflexivity|].
  inversion H as [|? ? Hb Hr]; subst. destruct (b =? slash) eqn:E; [lia|].
  rewrite IH by assumption. cbn [rev]. rewrite <- app_assoc. reflexivity.
Qed.

Lemma split_go_app : forall a cur b, split_go cur (a ++ slash :: b) = split_go cur a ++ comps b.
Proof.
  induction a as [|x r IH]; intros cur b; cbn [app split_go]; [rewrite Z.eqb_refl; reflexivity|].
  destruct (x =? slash); [rewrite IH; reflexivity|apply IH].
Qed.

Lemma comps_app a b : comps (a ++ slash :: b) = comps a ++ comps b.
Proof. apply split_go_app. Qed.

Lemma comps_noslash a : no_slash a -> comps a = [a].
Proof. intros H. unfold comps. rewrite split_go_noslash by assumption. reflexivity. Qed.

Lemma comps_intercalate : forall l, l <> [] -> comps (intercalate l) = flat_map comps l.
Proof.
  induction l as [|x r IH]; intros Hne; [congruence|].
  destruct r as [|y r'].
  - cbn [intercalate flat_map]. rewrite app_nil_r. reflexivity.
  - change (intercalate (x :: y :: r')) with (x ++ slash :: intercalate (y :: r')).
    rewrite comps_app, IH by discriminate. reflexivity.
Qed.

Lemma flat_map_comps_noslash l : Forall no_slash l -> flat_map comps l = l.
Proof.
  induction 1 as [|x r Hx _ IH]; cbn [flat_map]; [reflexivity|].
  rewrite comps_noslash, IH by assumption. reflexivity.
Qed.

(* the components Clean keeps (neither empty nor "."), and component lists without ".." *)
Definition kept (c : str) : bool := negb (is_empty c || is_dot c).
Definition nodd (cs : list str) : Prop := Forall (fun c => is_dotdot c = false) cs.

Lemma clean_go_nodotdot rooted : forall cs stack, nodd cs ->
  clean_go rooted stack cs = rev stack ++ filter kept cs.
Proof.
  induction cs as [|c r IH]; intros stack H; cbn [clean_go filter]; [rewrite app_nil_r; reflexivity|].
  inversion H as [|? ? Hc Hr]; subst. unfold kept at 1.
  destruct (is_empty c || is_dot c) eqn:E; cbn [negb]; [apply IH; assumption|].
  rewrite Hc. rewrite IH by assumption. cbn [rev]. rewrite <- app_assoc. reflexivity.
Qed.

(* a path without ".." cleans to its kept components *)
Lemma clean_nodd s : nodd (comps s) -> clean s = render (is_rooted s) (filter kept (comps s)).
Proof. intros H. unfold clean. rewrite clean_go_nodotdot by assumption. reflexivity. Qed.

Lemma filter_kept_normal l : Forall normal l -> filter kept l = l.
Proof.
  induction 1 as [|c r (H1 & H2 & _) _ IH]; [reflexivity|]. cbn [filter]. unfold kept at 1.
  rewrite H1, H2, IH. reflexivity.
Qed.

Lemma normal_nodd l : Forall normal l -> nodd l.
Proof. apply Forall_impl. intros c (_ & _ & H & _). exact H. Qed.

Lemma normal_noslash l : Forall normal l -> Forall no_slash l.
Proof. apply Forall_impl. intros c (_ & _ & _ & H). exact H. Qed.

Lemma kept_normal l : Forall no_slash l -> nodd l -> Forall normal (filter kept l).
Proof.
  unfold nodd. intros Hns Hdd. rewrite Forall_forall in *. intros c Hc. apply filter_In in Hc as [Hin Hk].
  unfold kept in Hk. apply negb_true_iff, orb_false_elim in Hk as [H1 H2].
  repeat split; auto.
Qed.

Lemma is_rooted_noslash s : no_slash s -> is_rooted s = false.
Proof. destruct 1; cbn [is_rooted]; [reflexivity|lia]. Qed.

Lemma is_rooted_intercalate p r : is_empty p = false -> is_rooted (intercalate (p :: r)) = is_rooted p.
Proof. destruct p; [discriminate|]. destruct r; reflexivity. Qed.

(* the components of a rendered normal form are the form itself, up to the "" and "." that Clean drops *)
Lemma comps_render_kept b l : Forall normal l ->
  filter kept (comps (render b l)) = l /\ nodd (comps (render b l)).
Proof.
  intros H. pose proof (normal_nodd l H) as Hd.
  destruct l as [|x r]; [destruct b; split; repeat constructor|].
  assert (E : comps (intercalate (x :: r)) = x :: r).
  { rewrite comps_intercalate by discriminate. apply flat_map_comps_noslash, normal_noslash, H. }
  destruct b.
  - change (comps (render true (x :: r))) with ([] :: comps (intercalate (x :: r))). rewrite E.
    change (filter kept ([] :: x :: r)) with (filter kept (x :: r)).
    rewrite filter_kept_normal by assumption. split; [reflexivity|constructor; [reflexivity|exact Hd]].
  - cbn [render]. rewrite E, filter_kept_normal by assumption. split; [reflexivity|exact Hd].
Qed.

(* Clean of a relative path made of normal components is the path itself *)
Lemma clean_render_rel l : Forall normal l -> clean (render false l) = render false l.
Proof.
  intros H. destruct (comps_render_kept false l H) as [Hk Hd]. rewrite clean_nodd, Hk by assumption.
  destruct H as [|x r (He & _ & _ & Hs) _]; [reflexivity|]. cbn [render].
  rewrite is_rooted_intercalate, is_rooted_noslash by assumption. reflexivity.
Qed.

Lemma kept_comps_nonempty ps :
  filter kept (flat_map comps (filter (fun p => negb (is_empty p)) ps)) = filter kept (flat_map comps ps).
Proof.
  induction ps as [|p r IH]; [reflexivity|]. destruct p as [|b p']; [exact IH|].
  cbn [filter is_empty negb flat_map]. rewrite !filter_app, IH. reflexivity.
Qed.

Lemma join_nodd p ps : is_empty p = false -> Forall (fun q => nodd (comps q)) (p :: ps) ->
  join (p :: ps) = render (is_rooted p) (filter kept (flat_map comps (p :: ps))).
Proof.
  intros He H. unfold join. cbn [filter]. rewrite He. cbn [negb].
  pose proof (comps_intercalate (p :: filter (fun q => negb (is_empty q)) ps) ltac:(discriminate)) as Hc.
  rewrite clean_nodd; rewrite Hc.
  - rewrite is_rooted_intercalate by assumption. cbn [flat_map].
    rewrite !filter_app, kept_comps_nonempty. reflexivity.
  - apply Forall_flat_map. inversion H; subst. constructor; [assumption|].
    eapply incl_Forall; [apply incl_filter|assumption].
Qed.

(* Join(dest, rel) for an absolute clean dest and a clean ..-free relative path *)
Lemma join_root rs l : Forall normal rs -> Forall normal l ->
  join [render true rs; render false l] = render true (rs ++ l).
Proof.
  intros Hrs Hl. destruct (comps_render_kept true rs Hrs) as [Hk1 Hd1].
  destruct (comps_render_kept false l Hl) as [Hk2 Hd2].
  rewrite join_nodd; [|reflexivity|constructor; [exact Hd1|constructor; [exact Hd2|constructor]]].
  cbn [flat_map]. rewrite app_nil_r, filter_app, Hk1, Hk2. reflexivity.
Qed.

Theorem open_path_confined rs l : Forall normal rs -> Forall normal l ->
  open_path (render true rs) (render false l) = render true (rs ++ l).
Proof.
  intros Hrs Hl. unfold open_path. rewrite clean_render_rel by assumption. apply join_root; assumption.
Qed.

Lemma has_prefix_app p s : has_prefix p (p ++ s) = true.
Proof. induction p as [|x r IH]; cbn [has_prefix app]; [reflexivity|]. rewrite Z.eqb_refl. exact IH. Qed.

Lemma has_prefix_inv : forall p s, has_prefix p s = true -> exists rest, s = p ++ rest.
Proof.
  induction p as [|x r IH]; intros s H; [exists s; reflexivity|].
  destruct s as [|y s']; cbn [has_prefix] in H; [discriminate|].
  apply andb_prop in H as [H1 H2]. apply IH in H2 as (rest & ->). exists rest. cbn [app]. f_equal. lia.
Qed.

Lemma intercalate_cons x l : l <> [] -> intercalate (x :: l) = x ++ slash :: intercalate l.
Proof. destruct l; [congruence|reflexivity]. Qed.

Lemma intercalate_app a b : a <> [] -> b <> [] ->
  intercalate (a ++ b) = intercalate a ++ slash :: intercalate b.
Proof.
  induction a as [|x [|y r] IH]; intros Ha Hb; [congruence|apply intercalate_cons, Hb|].
  change (x ++ slash :: intercalate ((y :: r) ++ b) = (x ++ slash :: intercalate (y :: r)) ++ slash :: intercalate b).
  rewrite IH, <- app_assoc by (discriminate || assumption). reflexivity.
Qed.

(* string-level form: the opened path lies strictly below dest *)
Corollary open_path_prefix rs l : Forall normal rs -> Forall normal l -> rs <> [] -> l <> [] ->
  has_prefix (render true rs ++ [slash]) (open_path (render true rs) (render false l)) = true.
Proof.
  intros Hrs Hl Hr Hne. rewrite open_path_confined by assumption. cbn [render].
  rewrite intercalate_app by assumption.
  change (slash :: intercalate rs ++ slash :: intercalate l) with ((slash :: intercalate rs) ++ [slash] ++ intercalate l).
  rewrite app_assoc. apply has_prefix_app.
Qed.

(* and conversely: a normal form with the string prefix "<dest>/" extends dest's components *)
Lemma below_components k0 k : Forall normal k0 -> Forall normal k ->
  has_prefix (render true k0 ++ [slash]) (render true k) = true -> exists l, k = k0 ++ l /\ l <> [].
Proof.
  intros H0 Hk Hp. apply has_prefix_inv in Hp as (rest & Hr). rewrite <- app_assoc in Hr. cbn [app] in Hr.
  pose proof (proj1 (comps_render_kept true k Hk)) as E.
  rewrite Hr, comps_app, filter_app, (proj1 (comps_render_kept true k0 H0)) in E.
  exists (filter kept (comps rest)). split; [symmetry; exact E|]. intros Hn.
  rewrite Hn, app_nil_r in E. subst k0. apply (f_equal (@length _)) in Hr.
  rewrite app_length in Hr. cbn [length app] in Hr. lia.
Qed.

Lemma render_true_inj a b : Forall normal a -> Forall normal b -> render true a = render true b -> a = b.
Proof.
  intros Ha Hb E. rewrite <- (proj1 (comps_render_kept true a Ha)), E. apply comps_render_kept, Hb.
Qed.

(* distinct relative paths open distinct files *)
Theorem open_path_injective rs l1 l2 : Forall normal rs -> Forall normal l1 -> Forall normal l2 ->
  open_path (render true rs) (render false l1) = open_path (render true rs) (render false l2) -> l1 = l2.
Proof.
  intros Hrs H1 H2 E. rewrite !open_path_confined in E by assumption.
  apply render_true_inj in E; [|apply Forall_app; split; assumption..].
  apply app_inv_head in E. exact E.
Qed.

Lemma clean_name_noslash s : no_slash (clean_name s).
Proof.
  unfold clean_name, clean_name_n, replace_sep, no_slash. rewrite Forall_map. apply Forall_forall.
  intros b _. destruct (Z.eqb_spec b slash); [discriminate|assumption].
Qed.

Lemma existsb_false_forall {A} (f : A -> bool) l : existsb f l = false -> Forall (fun x => f x = false) l.
Proof.
  induction l as [|x r IH]; cbn [existsb]; intros H; [constructor|].
  apply orb_false_elim in H as [H1 H2]. constructor; auto.
Qed.

(* shape of a joined path: it cleans to a ".."-free relative path of kept components ("" cleans to ".") *)
Definition rel_confined (j : str) : Prop :=
  exists l, Forall normal l /\ clean j = render false l.

Lemma noslash_confined j : no_slash j -> is_dotdot j = false -> rel_confined j.
Proof.
  intros Hs Hd. exists (filter kept [j]). split; [apply kept_normal; repeat constructor; assumption|].
  rewrite clean_nodd; rewrite comps_noslash by assumption; [|repeat constructor; assumption].
  rewrite is_rooted_noslash by assumption. reflexivity.
Qed.

Lemma join_confined parts : Forall no_slash parts -> nodd parts -> rel_confined (join parts).
Proof.
  induction parts as [|p ps IH]; intros Hns Hdd; [exists []; split; [constructor|reflexivity]|].
  destruct (is_empty p) eqn:E.
  - destruct p; [|discriminate]. inversion Hns; inversion Hdd; subst. apply IH; assumption.
  - exists (filter kept (p :: ps)). split; [apply kept_normal; assumption|].
    assert (Hq : Forall (fun q => nodd (comps q)) (p :: ps)).
    { apply Forall_flat_map. rewrite flat_map_comps_noslash; assumption. }
    rewrite join_nodd, flat_map_comps_noslash by assumption.
    inversion Hns; subst. rewrite is_rooted_noslash by assumption.
    apply clean_render_rel, kept_normal; assumption.
Qed.

Lemma file_parts_noslash name path : Forall no_slash (file_parts name path).
Proof.
  unfold file_parts. constructor; [apply clean_name_noslash|].
  rewrite Forall_map. apply Forall_forall. intros; apply clean_name_noslash.
Qed.

Lemma build_files_confined name : forall files seen js,
  build_files true name files seen = Some js -> Forall rel_confined js.
Proof.
  induction files as [|[path padding] r IH]; intros seen js H; cbn [build_files] in H.
  - inversion H; constructor.
  - cbn [andb] in H. destruct (existsb is_dotdot (file_parts name path)) eqn:Ed; [discriminate|].
    destruct (negb padding && mem_str (join (file_parts name path)) seen); [discriminate|].
    destruct (build_files true name r _) as [js'|] eqn:Eb; [|discriminate].
    inversion H; subst. constructor; [|eapply IH; eauto].
    apply join_confined; [apply file_parts_noslash|apply existsb_false_forall, Ed].
Qed.

Theorem accepted_paths_confined name files js :
  accept_paths true name files = Some js -> Forall rel_confined js.
Proof.
  unfold accept_paths. destruct (existsb _ files); [discriminate|].
  destruct files as [|f r]; [|apply build_files_confined].
  cbn [andb]. destruct (is_dotdot (clean_name name)) eqn:Ed; [discriminate|].
  intros H; inversion H; subst. constructor; [|constructor].
  apply noslash_confined; [apply clean_name_noslash|exact Ed].
Qed.

(* C07 core: every file of an accepted torrent opens at or below the data directory, with no
   ".." component in the opened path *)
Theorem accepted_files_stay_below name files js rs :
  accept_paths true name files = Some js -> Forall normal rs ->
  Forall (fun j => exists l, Forall normal l /\ open_path (render true rs) j = render true (rs ++ l)) js.
Proof.
  intros H Hrs. apply accepted_paths_confined in H.
  eapply Forall_impl; [|exact H]. intros j (l & Hl & Hc).
  exists l. split; [assumption|]. unfold open_path. rewrite Hc. apply join_root; assumption.
Qed.


Lemma mem_str_in x l : mem_str x l = true <-> In x l.
Proof.
  induction l as [|y r IH]; cbn [mem_str In]; [split; [discriminate|tauto]|].
  rewrite orb_true_iff, IH, str_eqb_eq. split; intros [H|H]; auto.
Qed.

Fixpoint nonpad_paths (js : list str) (files : list (list str * bool)) : list str :=
  match js, files with
  | j :: js', (_, pad) :: fs' => if pad then nonpad_paths js' fs' else j :: nonpad_paths js' fs'
  | _, _ => []
  end.

Lemma build_files_distinct fixed name : forall files seen js,
  build_files fixed name files seen = Some js ->
  NoDup (nonpad_paths js files) /\ forall j, In j (nonpad_paths js files) -> ~ In j seen.
Proof.
  induction files as [|[path padding] r IH]; intros seen js H; cbn [build_files] in H.
  - inversion H; subst. cbn. split; [constructor|tauto].
  - destruct (fixed && existsb is_dotdot (file_parts name path)); [discriminate|].
    set (j := join (file_parts name path)) in *.
    destruct (negb padding && mem_str j seen) eqn:Em; [discriminate|].
    destruct (build_files fixed name r _) as [js'|] eqn:Eb; [|discriminate].
    inversion H; subst. cbn [nonpad_paths]. apply IH in Eb as [Hnd Hns].
    destruct padding; cbn [negb andb] in *.
    + split; assumption.
    + split.
      * constructor; [|assumption]. intros Hin. apply (Hns _ Hin). left; reflexivity.
      * intros j' [<-|Hin] Hs.
        -- apply mem_str_in in Hs. congruence.
        -- apply (Hns _ Hin). right; assumption.
Qed.

(* two different non-padding files of an accepted multi-file torrent never share a path *)
Theorem accepted_paths_distinct name f fs js :
  accept_paths true name (f :: fs) = Some js -> NoDup (nonpad_paths js (f :: fs)).
Proof.
  unfold accept_paths. destruct (existsb _ (f :: fs)); [discriminate|].
  intros H. apply build_files_distinct in H. tauto.
Qed.

Lemma split_go_all_noslash : forall s cur, no_slash (rev cur) -> Forall no_slash (split_go cur s).
Proof.
  induction s as [|b r IH]; intros cur H; cbn [split_go]; [repeat constructor; assumption|].
  destruct (b =? slash) eqn:E.
  - constructor; [assumption|]. apply IH. constructor.
  - apply IH. cbn [rev]. unfold no_slash in *. apply Forall_app. split; [assumption|].
    repeat constructor. lia.
Qed.

Lemma comps_all_noslash s : Forall no_slash (comps s).
Proof. apply split_go_all_noslash. constructor. Qed.

Lemma clean_go_rooted_normal : forall cs stack, Forall normal stack -> Forall no_slash cs ->
  Forall normal (clean_go true stack cs).
Proof.
  induction cs as [|c r IH]; intros stack Hst Hns; cbn [clean_go].
  - apply Forall_rev. assumption.
  - inversion Hns as [|? ? Hc Hr]; subst.
    destruct (is_empty c || is_dot c) eqn:E1; [apply IH; assumption|].
    apply orb_false_elim in E1 as [Ee Ed].
    destruct (is_dotdot c) eqn:E2.
    + destruct stack as [|top rest]; [apply IH; assumption|].
      inversion Hst as [|? ? Htop Hrest]; subst. destruct Htop as (_ & _ & Hdd & _). rewrite Hdd.
      apply IH; assumption.
    + apply IH; [|assumption]. constructor; [|assumption]. repeat split; assumption.
Qed.

Lemma clean_rooted s : is_rooted s = true ->
  exists k, clean s = render true k /\ Forall normal k.
Proof.
  intros H. unfold clean. rewrite H. eexists; split; [reflexivity|].
  apply clean_go_rooted_normal; [constructor|apply comps_all_noslash].
Qed.

Lemma is_rooted_app a b : is_rooted a = true -> is_rooted (a ++ b) = true.
Proof. destruct a; [discriminate|]. cbn. auto. Qed.

Theorem tar_confined dir e t : is_rooted dir = true -> tar_target dir e = Some t ->
  exists k0 l, clean dir = render true k0 /\ t = render true (k0 ++ l) /\
               Forall normal (k0 ++ l) /\ l <> [].
Proof.
  intros Hr H. unfold tar_target in H.
  destruct (clean_rooted dir Hr) as (k0 & Hd & Hk0). rewrite Hd in H.
  destruct (has_prefix _ (join [render true k0; e])) eqn:Hp; [|discriminate].
  inversion H; subst t. clear H.
  (* the joined name is a cleaned rooted path *)
  assert (Hname : exists k, join [render true k0; e] = render true k /\ Forall normal k).
  { unfold join. cbn [filter is_empty render negb].
    destruct (is_empty e); cbn [negb]; apply clean_rooted; [reflexivity|].
    rewrite intercalate_cons by discriminate. apply is_rooted_app. reflexivity. }
  destruct Hname as (k & Hn & Hk). rewrite Hn in *.
  destruct (below_components k0 k Hk0 Hk Hp) as (l & -> & Hl).
  exists k0, l. auto.
Qed.


Example accept_paths_example :
  accept_paths true [97] [([[98]; [46]; [99]], false); ([[98]; [100]], false)] = Some [[97;47;98;47;99]; [97;47;98;47;100]].
Proof. vm_compute. reflexivity. Qed.
Example accept_paths_dotdot_rejected : accept_paths true dotdot [([[98]], false)] = None.
Proof. vm_compute. reflexivity. Qed.
Example accept_paths_dotdot_pinned : accept_paths false dotdot [([[98]], false)] = Some [[46;46;47;98]].
Proof. vm_compute. reflexivity. Qed.
