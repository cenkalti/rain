(* Proofs about the web-seed half of the piece picker (PickerWs.v): the owner index and the
   downloader ranges describe each other in every reachable state, hence ranges of different web
   seeds never overlap and none of the ownership assertions of the Go code can fire; every answer
   the code can give in web-seed mode is a sound pick; the peer-half invariants survive. *)
From RainV Require Import Lib Picker PickerProofs PickerWs.
(* lets [lia] read the boolean range tests ([dl_covers], [src_in_range], [<=?]) in hypotheses *)
From Coq Require Import ZifyBool.

Lemma in_zrange_be b e j : In j (zrange b e) <-> b <= j < e.
Proof.
  unfold zrange. rewrite in_map_iff. split.
  - intros (k & <- & Hk). apply in_seq in Hk. lia.
  - intros H. exists (Z.to_nat (j - b)). split; [lia|]. apply in_seq. lia.
Qed.

Lemma find_down_some f b e i : find f (rev (zrange b e)) = Some i -> b <= i < e /\ f i = true.
Proof. intros H. apply find_some in H as [Hin Hf]. apply in_rev, in_zrange_be in Hin. split; assumption. Qed.

Lemma find_down_none f b e i : find f (rev (zrange b e)) = None -> b <= i < e -> f i = false.
Proof. intros H Hi. apply (find_none _ _ H). apply in_rev. rewrite rev_involutive. apply in_zrange_be. exact Hi. Qed.

Lemma in_dl_srcs s k d : In (k, d) (dl_srcs s) <-> 0 <= k < zlen (srcs s) /\ get_src s k = Some d.
Proof.
  unfold dl_srcs, get_src. rewrite in_flat_map. split.
  - intros ([k0 [d0|]] & Hin & Hx); cbn [fst snd] in Hx; [|destruct Hx]. destruct Hx as [Hx|[]]. inversion Hx; subst.
    apply (in_enum _ None). exact Hin.
  - intros H. exists (k, Some d). split; [apply (in_enum _ None); exact H|left; reflexivity].
Qed.

Lemma oz_eqb_eq a b : oz_eqb a b = true <-> a = b.
Proof. destruct a, b; cbn; rewrite ?Z.eqb_eq; split; congruence. Qed.

Lemma length_set_owner_range ow b e v : length (set_owner_range ow b e v) = length ow.
Proof. unfold set_owner_range. rewrite map_length. apply length_enum. Qed.

Lemma get_owner_set s b e v j : 0 <= j < zlen (owner s) ->
  get_owner (with_owner s (set_owner_range (owner s) b e v)) j = if (b <=? j) && (j <? e) then v else get_owner s j.
Proof.
  intros Hj. unfold zlen in Hj. unfold get_owner, set_owner_range, zseq. cbn [owner with_owner].
  set (f := fun iv : Z * option Z => if (b <=? fst iv) && (fst iv <? e) then v else snd iv).
  rewrite (nth_indep _ None (f (0, None))) by (rewrite map_length, length_enum; lia).
  rewrite map_nth, nth_enum, Z2Nat.id by lia. reflexivity.
Qed.

Lemma get_src_set s k v k' : 0 <= k < zlen (srcs s) -> 0 <= k' -> get_src (set_src s k v) k' = if k' =? k then v else get_src s k'.
Proof.
  intros Hk Hk'. unfold get_src, set_src, zlen in *. cbn [srcs]. destruct (Z.eqb_spec k' k) as [->|Hne].
  - rewrite nth_upd_nth_same by lia. reflexivity.
  - apply nth_upd_nth_other. lia.
Qed.
Lemma zlen_srcs_set s k v : zlen (srcs (set_src s k v)) = zlen (srcs s).
Proof. unfold set_src, zlen. cbn [srcs]. rewrite length_upd_nth. reflexivity. Qed.

Lemma range_owned_spec s b e v : b < e -> range_owned s b e v = true ->
  0 <= b /\ e <= zlen (owner s) /\ forall j, b <= j < e -> get_owner s j = v.
Proof.
  intros Hlt H. unfold range_owned in H. destruct (e <=? b) eqn:E; [lia|]. apply andb_prop in H as [H H3].
  split; [lia|]. split; [lia|]. intros j Hj. rewrite forallb_forall in H3. apply oz_eqb_eq. apply H3. apply in_zrange_be. exact Hj.
Qed.
Lemma range_owned_intro s b e v : 0 <= b -> e <= zlen (owner s) -> (forall j, b <= j < e -> get_owner s j = v) ->
  range_owned s b e v = true.
Proof.
  intros H1 H2 H3. unfold range_owned. apply orb_true_intro. right. apply andb_true_intro. split; [apply andb_true_intro; split; lia|].
  apply forallb_forall. intros j Hj. apply oz_eqb_eq. apply H3. apply in_zrange_be. exact Hj.
Qed.

Record WInv (s : wpicker) : Prop := {
  w_len : length (owner s) = length (pieces (base s));
  w_own : forall i k, 0 <= i < npieces s -> get_owner s i = Some k ->
            0 <= k < zlen (srcs s) /\ exists d, get_src s k = Some d /\ d_begin d <= i < d_end d;
  w_rng : forall k d i, 0 <= k < zlen (srcs s) -> get_src s k = Some d -> d_begin d <= i < d_end d -> get_owner s i = Some k;
  w_dl : forall k d, 0 <= k < zlen (srcs s) -> get_src s k = Some d ->
            0 <= d_begin d /\ d_begin d <= d_cur d /\ d_cur d <= d_end d /\ d_begin d < d_end d /\ d_end d <= npieces s
}.

Lemma zlen_owner s : WInv s -> zlen (owner s) = npieces s.
Proof. intros I. unfold zlen, npieces, zlen. rewrite (w_len s I). reflexivity. Qed.

(* C09: ranges assigned to different web seeds never overlap *)
Theorem ranges_disjoint s k1 k2 d1 d2 : WInv s -> 0 <= k1 < zlen (srcs s) -> 0 <= k2 < zlen (srcs s) -> k1 <> k2 ->
  get_src s k1 = Some d1 -> get_src s k2 = Some d2 -> d_end d1 <= d_begin d2 \/ d_end d2 <= d_begin d1.
Proof.
  intros I H1 H2 Hne E1 E2.
  assert (O : forall i, d_begin d1 <= i < d_end d1 -> d_begin d2 <= i < d_end d2 -> False).
  { intros i R1 R2. pose proof (w_rng s I k1 d1 i H1 E1 R1) as O1. rewrite (w_rng s I k2 d2 i H2 E2 R2) in O1. congruence. }
  (* of two overlapping ranges one holds the first piece of the other *)
  pose proof (w_dl s I k1 d1 H1 E1). pose proof (w_dl s I k2 d2 H2 E2). pose proof (O (d_begin d1)). pose proof (O (d_begin d2)). lia.
Qed.

Lemma winv_base s b : WInv s -> length (pieces b) = length (pieces (base s)) -> WInv (with_base s b).
Proof.
  intros I Hl. assert (Hn : npieces (with_base s b) = npieces s) by (unfold npieces, zlen; cbn [base with_base]; rewrite Hl; reflexivity).
  constructor.
  - cbn [owner with_base base]. rewrite Hl. apply (w_len s I).
  - intros i k Hi. rewrite Hn in Hi. exact (w_own s I i k Hi).
  - exact (w_rng s I).
  - intros k d Hk E. rewrite Hn. exact (w_dl s I k d Hk E).
Qed.

Definition dl_covers (v : option wdl) (i : Z) : bool :=
  match v with Some d => (d_begin d <=? i) && (i <? d_end d) | None => false end.

(* [s'] is [s] with the downloader of source [k] replaced by [v]: the owner index has changed on the
   old and on the new range of [k] only *)
Record Rerange (s : wpicker) (k : Z) (v : option wdl) (s' : wpicker) : Prop := {
  r_base : base s' = base s;
  r_len : length (owner s') = length (owner s);
  r_n : zlen (srcs s') = zlen (srcs s);
  r_src : forall k', 0 <= k' -> get_src s' k' = if k' =? k then v else get_src s k';
  r_own : forall j, 0 <= j < npieces s ->
            get_owner s' j = if dl_covers v j then Some k else if dl_covers (get_src s k) j then None else get_owner s j
}.

Lemma rerange_intro s ow k v : length ow = length (owner s) -> 0 <= k < zlen (srcs s) ->
  (forall j, 0 <= j < npieces s ->
     get_owner (with_owner s ow) j = if dl_covers v j then Some k else if dl_covers (get_src s k) j then None else get_owner s j) ->
  Rerange s k v (set_src (with_owner s ow) k v).
Proof.
  intros Hl Hk Ho. constructor; [reflexivity|exact Hl|exact (zlen_srcs_set (with_owner s ow) k v)| |exact Ho].
  intros k' Hk'. apply (get_src_set (with_owner s ow)); assumption.
Qed.

Lemma rerange_same s k v s' : Rerange s k v s' -> 0 <= k -> get_src s' k = v.
Proof. intros U Hk. rewrite (r_src _ _ _ _ U) by exact Hk. rewrite Z.eqb_refl. reflexivity. Qed.

(* two replacements in a row, the first one shrinking the range *)
Lemma rerange_trans s k v1 s1 v2 s2 : Rerange s k v1 s1 -> Rerange s1 k v2 s2 -> 0 <= k ->
  (forall j, dl_covers v1 j = true -> dl_covers (get_src s k) j = true) -> Rerange s k v2 s2.
Proof.
  intros U1 U2 Hk Hsub. destruct U1 as [B1 L1 N1 S1 O1], U2 as [B2 L2 N2 S2 O2]. constructor; try congruence.
  - intros k' Hk'. rewrite S2, S1 by exact Hk'. destruct (k' =? k); reflexivity.
  - intros j Hj. unfold npieces in O2. rewrite B1 in O2. rewrite O2, S1, Z.eqb_refl, O1 by (exact Hj || exact Hk).
    specialize (Hsub j). destruct (dl_covers v1 j); [rewrite Hsub; reflexivity|reflexivity].
Qed.

Lemma winv_rerange s k v s' : WInv s -> 0 <= k < zlen (srcs s) -> Rerange s k v s' ->
  match v with
  | Some d => 0 <= d_begin d <= d_cur d /\ d_cur d <= d_end d /\ d_begin d < d_end d <= npieces s /\
              forall j, d_begin d <= j < d_end d -> get_owner s j = None \/ get_owner s j = Some k
  | None => True
  end -> WInv s'.
Proof.
  intros I Hk [B L N S O] Hv. assert (Hnp : npieces s' = npieces s) by (unfold npieces; rewrite B; reflexivity).
  constructor.
  - rewrite L, B. apply (w_len s I).
  - intros i k0 Hi Ho. rewrite Hnp in Hi. rewrite O in Ho by exact Hi. rewrite N. destruct (dl_covers v i) eqn:C1.
    + inversion Ho; subst k0. split; [exact Hk|]. rewrite S, Z.eqb_refl by lia. destruct v as [d|]; [|discriminate].
      exists d. split; [reflexivity|]. cbn [dl_covers] in C1. lia.
    + destruct (dl_covers (get_src s k) i) eqn:C2; [discriminate|]. destruct (w_own s I i k0 Hi Ho) as (K0 & d0 & E0 & R0).
      split; [exact K0|]. exists d0. split; [|exact R0]. rewrite S by lia.
      destruct (Z.eqb_spec k0 k) as [->|Hne]; [|exact E0]. rewrite E0 in C2. cbn [dl_covers] in C2. lia.
  - intros k0 d0 i K0 E0 R0. rewrite N in K0. rewrite S in E0 by lia. destruct (Z.eqb_spec k0 k) as [->|Hne].
    + subst v. rewrite O by lia. cbn [dl_covers]. replace (_ && _) with true by lia. reflexivity.
    + destruct (w_dl s I k0 d0 K0 E0) as (A1 & _ & _ & _ & A2). pose proof (w_rng s I k0 d0 i K0 E0 R0) as O0. rewrite O by lia.
      destruct (dl_covers v i) eqn:C1.
      * destruct v as [d|]; [|discriminate]. destruct Hv as (_ & _ & _ & F). cbn [dl_covers] in C1.
        destruct (F i ltac:(lia)); congruence.
      * destruct (get_src s k) as [d|] eqn:E; [|exact O0]. cbn [dl_covers]. destruct (_ && _) eqn:C2; [|exact O0].
        rewrite (w_rng s I k d i Hk E) in O0 by lia. congruence.
  - intros k0 d0 K0 E0. rewrite N in K0. rewrite S in E0 by lia. rewrite Hnp. destruct (Z.eqb_spec k0 k) as [->|Hne].
    + subst v. lia.
    + exact (w_dl s I k0 d0 K0 E0).
Qed.

Lemma rerange_cut s k d b s' : WInv s -> 0 <= k < zlen (srcs s) -> get_src s k = Some d -> d_cur d < b < d_end d ->
  Rerange s k (Some {| d_begin := d_begin d; d_end := b; d_cur := d_cur d |}) s' ->
  get_src s' k = Some {| d_begin := d_begin d; d_end := b; d_cur := d_cur d |} /\
  forall j, b <= j < d_end d -> get_owner s' j = None.
Proof.
  intros I Hk E Hb U. split; [apply (rerange_same s k _ s' U); lia|]. intros j Hj.
  destruct (w_dl s I k d Hk E) as (A1 & A2 & _ & _ & A3). rewrite (r_own _ _ _ _ U), E by lia. cbn [dl_covers d_begin d_end].
  replace (_ && (j <? b)) with false by lia. replace (_ && _) with true by lia. reflexivity.
Qed.

(* closing a source whose range is owned by it passes the assertion and removes the source; stated
   without [WInv] because WebseedStopAt closes a source whose range may be empty *)
Lemma close_rerange s k d : length (owner s) = length (pieces (base s)) -> 0 <= k < zlen (srcs s) -> get_src s k = Some d ->
  0 <= d_begin d -> d_end d <= npieces s -> (forall j, d_begin d <= j < d_end d -> get_owner s j = Some k) ->
  exists s', close_ws s k = Some s' /\ Rerange s k None s'.
Proof.
  intros Hl Hk E Hb He Ho. assert (Hz : zlen (owner s) = npieces s) by (unfold npieces, zlen; rewrite Hl; reflexivity).
  unfold close_ws. rewrite E, range_owned_intro by (rewrite ?Hz; assumption). eexists. split; [reflexivity|].
  apply rerange_intro; [apply length_set_owner_range|exact Hk|]. intros j Hj.
  rewrite get_owner_set, E by (rewrite Hz; exact Hj). reflexivity.
Qed.

(* CloseWebseedDownloader never hits its assertion and keeps the invariant *)
Lemma close_ws_ok s k : WInv s -> 0 <= k < zlen (srcs s) -> exists s', close_ws s k = Some s' /\ WInv s' /\ base s' = base s.
Proof.
  intros I Hk. destruct (get_src s k) as [d|] eqn:E; [|exists s; unfold close_ws; rewrite E; auto].
  destruct (w_dl s I k d Hk E) as (A1 & _ & _ & _ & A2).
  destruct (close_rerange s k d (w_len s I) Hk E A1 A2 (fun j => w_rng s I k d j Hk E)) as (s' & Ec & U).
  exists s'. split; [exact Ec|]. split; [exact (winv_rerange s k None s' I Hk U Logic.I)|apply U].
Qed.

(* WebseedStopAt inside the range of its source never hits its assertion and keeps the invariant: the
   source keeps what lies below [i], or is closed when it has reached [i] already *)
Lemma stop_at_ok s k d i : WInv s -> 0 <= k < zlen (srcs s) -> get_src s k = Some d -> d_begin d <= i < d_end d ->
  exists s', stop_at s k i = Some (s', d_cur d >=? i) /\ WInv s' /\
    Rerange s k (if d_cur d >=? i then None else Some {| d_begin := d_begin d; d_end := i; d_cur := d_cur d |}) s'.
Proof.
  intros I Hk E Hi. destruct (w_dl s I k d Hk E) as (D1 & D2 & D3 & D4 & D5).
  assert (Hr : forall j, d_begin d <= j < d_end d -> get_owner s j = Some k) by (intros j; apply (w_rng s I k d j Hk E)).
  unfold stop_at. rewrite E, range_owned_intro; [|lia|rewrite (zlen_owner s I); lia|intros j Hj; apply Hr; lia].
  set (d1 := {| d_begin := d_begin d; d_end := i; d_cur := d_cur d |}).
  set (s1 := set_src (with_owner s (set_owner_range (owner s) i (d_end d) None)) k (Some d1)).
  assert (U1 : Rerange s k (Some d1) s1).
  { apply rerange_intro; [apply length_set_owner_range|exact Hk|]. intros j Hj.
    rewrite get_owner_set, E by (rewrite (zlen_owner s I); exact Hj). cbn [dl_covers d1 d_begin d_end].
    destruct ((d_begin d <=? j) && (j <? i)) eqn:C.
    - replace ((i <=? j) && _) with false by lia. apply Hr. lia.
    - replace (d_begin d <=? j) with (i <=? j) by lia. reflexivity. }
  pose proof U1 as [B1 L1 N1 _ O1].
  destruct (d_cur d >=? i) eqn:Ec.
  - destruct (close_rerange s1 k d1) as (s2 & E2 & U2).
    + rewrite L1, B1. apply (w_len s I).
    + rewrite N1. exact Hk.
    + apply (rerange_same s k _ s1 U1). lia.
    + exact D1.
    + unfold npieces. rewrite B1. fold (npieces s). cbn [d1 d_end]. lia.
    + cbn [d1 d_begin d_end]. intros j Hj. rewrite O1 by lia. cbn [dl_covers d1 d_begin d_end]. replace (_ && _) with true by lia. reflexivity.
    + rewrite E2. exists s2. split; [reflexivity|].
      assert (U : Rerange s k None s2).
      { apply (rerange_trans s k (Some d1) s1 None s2 U1 U2); [lia|]. intros j. rewrite E. cbn [dl_covers d1 d_begin d_end]. lia. }
      split; [exact (winv_rerange s k None s2 I Hk U Logic.I)|exact U].
  - exists s1. split; [reflexivity|]. split; [|exact U1]. apply (winv_rerange s k (Some d1) s1 I Hk U1).
    cbn [d1 d_begin d_end d_cur]. repeat split; try lia. intros j Hj. right. apply Hr. lia.
Qed.

(* the downloader goroutine moves on to its next piece *)
Lemma winv_advance s k d : WInv s -> 0 <= k < zlen (srcs s) -> get_src s k = Some d -> d_cur d < d_end d ->
  WInv (set_src s k (Some {| d_begin := d_begin d; d_end := d_end d; d_cur := d_cur d + 1 |})).
Proof.
  intros I Hk E Hc. destruct (w_dl s I k d Hk E) as (D1 & D2 & D3 & D4 & D5).
  set (d1 := {| d_begin := d_begin d; d_end := d_end d; d_cur := d_cur d + 1 |}).
  assert (Hr : forall j, d_begin d <= j < d_end d -> get_owner s j = Some k) by (intros j; apply (w_rng s I k d j Hk E)).
  apply (winv_rerange s k (Some d1) _ I Hk).
  - apply (rerange_intro s (owner s)); [reflexivity|exact Hk|]. intros j Hj. rewrite E. cbn [dl_covers d1 d_begin d_end].
    destruct (_ && _) eqn:C; [apply Hr; lia|reflexivity].
  - cbn [d1 d_begin d_end d_cur]. repeat split; try lia. intros j Hj. right. exact (Hr j Hj).
Qed.

Definition gap_ok (s : wpicker) (g : Z * Z) : Prop :=
  0 <= fst g /\ fst g < snd g /\ snd g <= npieces s /\ forall i, fst g <= i < snd g -> avail_ws s i = true.

Fixpoint gaps_sorted (lo : Z) (gs : list (Z * Z)) : Prop :=
  match gs with
  | [] => True
  | g :: r => lo <= fst g /\ fst g < snd g /\ gaps_sorted (snd g) r
  end.

(* [gs] are gaps from [lo] on, in ascending order and at most maxWebseedPieces long, and hold every
   piece from [lo] on that is available for a web seed *)
Definition gaps_from (s : wpicker) (lo : Z) (gs : list (Z * Z)) : Prop :=
  gaps_sorted lo gs /\
  (forall g, In g gs -> gap_ok s g /\ (1 <= maxws s -> gap_len g <= maxws s)) /\
  (forall i, avail_ws s i = true -> lo <= i < npieces s -> exists g, In g gs /\ fst g <= i < snd g).

Lemma gaps_from_nil s lo : npieces s <= lo -> gaps_from s lo [].
Proof. intros H. split; [exact I|]. split; [intros g []|]. intros i _ Hi. lia. Qed.

Lemma gaps_from_le s lo lo' gs : lo' <= lo -> (forall i, lo' <= i < lo -> avail_ws s i = false) ->
  gaps_from s lo gs -> gaps_from s lo' gs.
Proof.
  intros Hlo Hn (A & B & C). split; [|split; [exact B|]].
  - destruct gs as [|g r]; cbn [gaps_sorted] in *; [exact I|]. split; [lia|apply A].
  - intros i Ha Hi. apply (C i Ha). destruct (Z_lt_ge_dec i lo) as [G|G]; [|lia]. rewrite Hn in Ha by lia. discriminate.
Qed.

Lemma gaps_from_cons s b m gs : 0 <= b < m -> m <= npieces s -> (forall i, b <= i < m -> avail_ws s i = true) ->
  (1 <= maxws s -> m - b <= maxws s) -> gaps_from s m gs -> gaps_from s b ((b, m) :: gs).
Proof.
  intros Hb Hm Ha Hl (A & B & C). split; [|split].
  - cbn [gaps_sorted fst snd]. split; [lia|]. split; [lia|exact A].
  - intros g [<-|Hg]; [|exact (B g Hg)]. unfold gap_ok. cbn [fst snd]. split; [|exact Hl]. split; [lia|]. split; [lia|]. split; [lia|exact Ha].
  - intros i Hi Hr. destruct (Z_lt_ge_dec i m) as [L|L]; [exists (b, m); split; [left; reflexivity|cbn [fst snd]; lia]|].
    destruct (C i Hi) as (g & Hg & Hig); [lia|]. exists g. split; [right; exact Hg|exact Hig].
Qed.

(* [a] pieces are scanned and [n] are left; inside a gap, [b] is its begin, every piece of [b, a) is
   available and the gap is at most maxWebseedPieces long *)
Lemma gaps_go_spec s : forall n a ingap b, npieces s = Z.of_nat (a + n) ->
  (ingap = true -> 0 <= b < Z.of_nat a /\ (forall i, b <= i < Z.of_nat a -> avail_ws s i = true) /\
                   (1 <= maxws s -> Z.of_nat a - b <= maxws s)) ->
  gaps_from s (if ingap then b else Z.of_nat a) (gaps_go s (map Z.of_nat (seq a n)) ingap b).
Proof.
  induction n as [|n IH]; intros a ingap b Hn Hb; cbn [seq map gaps_go].
  - rewrite Nat.add_0_r in Hn. destruct ingap; [|apply gaps_from_nil; lia].
    destruct (Hb eq_refl) as (B1 & B2 & B3). rewrite Hn. apply gaps_from_cons; auto; [lia|apply gaps_from_nil; lia].
  - assert (Hn' : npieces s = Z.of_nat (S a + n)) by lia. specialize (IH (S a)).
    replace (Z.of_nat (S a)) with (Z.of_nat a + 1) in IH by lia. set (m := Z.of_nat a) in *.
    (* the rest of the pass when a gap begins at [m], and when [m] belongs to no gap *)
    assert (Hopen : avail_ws s m = true -> gaps_from s m (gaps_go s (map Z.of_nat (seq (S a) n)) true m)).
    { intros Ea. apply (IH true m Hn'). intros _. split; [lia|]. split; [intros i Hi; replace i with m by lia; exact Ea|lia]. }
    assert (Hskip : avail_ws s m = false -> gaps_from s m (gaps_go s (map Z.of_nat (seq (S a) n)) false b)).
    { intros Ea. apply (gaps_from_le s (m + 1)); [lia| |apply (IH false b Hn'); discriminate].
      intros i Hi. replace i with m by lia. exact Ea. }
    destruct ingap; cbn [negb]; [|destruct (avail_ws s m); auto].
    destruct (Hb eq_refl) as (B1 & B2 & B3). assert (Hm : m <= npieces s) by lia.
    destruct (avail_ws s m) eqn:Ea; cbn [negb]; [|apply gaps_from_cons; auto].
    destruct (m - b =? maxws s) eqn:Em; [apply gaps_from_cons; auto|].
    apply (IH true b Hn'). intros _. split; [lia|]. split; [|lia].
    intros i Hi. destruct (Z.eq_dec i m) as [->|]; [exact Ea|apply B2; lia].
Qed.

Lemma find_gaps_spec s : gaps_from s 0 (find_gaps s).
Proof. apply (gaps_go_spec s _ 0 false 0); [reflexivity|discriminate]. Qed.

Lemma find_gaps_ok s g : In g (find_gaps s) -> gap_ok s g.
Proof. intros H. destruct (find_gaps_spec s) as (_ & B & _). apply B. exact H. Qed.

Theorem find_gaps_sorted s : gaps_sorted 0 (find_gaps s).
Proof. apply find_gaps_spec. Qed.

Lemma find_gaps_complete s i : in_range (base s) i = true -> avail_ws s i = true ->
  exists g, In g (find_gaps s) /\ fst g <= i < snd g.
Proof.
  intros Hr Ha. destruct (find_gaps_spec s) as (_ & _ & C). apply (C i Ha), in_range_spec, Hr.
Qed.

(* length bound: a web seed is never handed more than maxWebseedPieces pieces in one request *)
Theorem find_gaps_bounded s g : 1 <= maxws s -> In g (find_gaps s) -> snd g - fst g <= maxws s.
Proof. intros Hm H. destruct (find_gaps_spec s) as (_ & B & _). apply (B g H). exact Hm. Qed.

Lemma avail_ws_free s i : avail_ws s i = true -> open_ (get_piece (base s) i) = true /\ get_owner s i = None.
Proof. intros H. apply andb_prop in H as [H1 H2]. split; [exact H1|]. destruct (get_owner s i); [discriminate|reflexivity]. Qed.

Lemma steal_begin_gt d : steal_begin d < d_end d -> d_cur d < steal_begin d.
Proof. unfold steal_begin. intros H. Z.div_mod_to_equations. lia. Qed.

(* findPieceRangeForWebseed with an answer: either the answer is one of the gaps and nothing changes,
   or there is no gap and the answer is the upper half of what a downloading source has left, which
   is cut off that source: the victim keeps the piece it is working on *)
Lemma ws_check_some s b e s1 : ws_check s (Some (b, e)) = Some s1 ->
  (find_gaps s <> [] /\ s1 = s /\ gap_ok s (b, e)) \/
  (find_gaps s = [] /\
   (WInv s -> exists k d, 0 <= k < zlen (srcs s) /\ get_src s k = Some d /\ b = steal_begin d /\ e = d_end d /\ d_cur d < b < e /\
      WInv s1 /\ Rerange s k (Some {| d_begin := d_begin d; d_end := b; d_cur := d_cur d |}) s1)).
Proof.
  intros H. unfold ws_check in H. destruct (find_gaps s) as [|g0 gs] eqn:Eg.
  - right. split; [reflexivity|]. intros I. destruct (dl_srcs s) as [|x xs] eqn:Ed; [discriminate|]. rewrite <- Ed in H.
    destruct (find _ _) as [[k d]|] eqn:Ef; [|discriminate].
    apply find_some in Ef as [Hin Hc]. apply filter_In in Hin as [Hin _]. cbn [snd] in Hc.
    apply andb_prop in Hc as [[<-%Z.eqb_eq <-%Z.eqb_eq]%andb_prop Hlt%Z.ltb_lt].
    apply in_dl_srcs in Hin as [Hk E]. destruct (w_dl s I k d Hk E) as (D1 & D2 & D3 & D4 & D5).
    assert (Hgt : d_cur d < steal_begin d < d_end d) by (split; [apply steal_begin_gt|]; exact Hlt).
    destruct (stop_at_ok s k d (steal_begin d) I Hk E ltac:(lia)) as (s' & Es & I' & U).
    rewrite Es in H. inversion H; subst s'. replace (d_cur d >=? steal_begin d) with false in U by lia.
    exists k, d. auto 8.
  - left. split; [discriminate|].
    assert (Fin : forall g, In g (g0 :: gs) -> gap_ok s g) by (rewrite <- Eg; apply find_gaps_ok).
    destruct (sequential (base s)).
    + destruct (first_tail s) as [i|] eqn:Et.
      * destruct ((b =? i) && (e =? i + 1)) eqn:Ebe; [|discriminate]. inversion H; subst s1. split; [reflexivity|].
        apply find_some in Et as [Hin Hc]. apply andb_prop in Hc as [_ Hc].
        apply in_map_iff in Hin as (n & <- & Hn). apply in_seq in Hn. unfold gap_ok, npieces, zlen. cbn [fst snd].
        repeat split; try lia. intros j Hj. replace j with (Z.of_nat n) by lia. exact Hc.
      * destruct ((b =? fst g0) && (e =? snd g0)) eqn:Ebe; [|discriminate]. inversion H; subst s1.
        apply andb_prop in Ebe as [->%Z.eqb_eq ->%Z.eqb_eq]. split; [reflexivity|]. destruct g0. apply Fin. left. reflexivity.
    + destruct (existsb _ _) eqn:Ee; [|discriminate]. inversion H; subst s1.
      apply existsb_exists in Ee as ([b' e'] & Hin & Hc). cbn [fst snd] in Hc.
      apply andb_prop in Hc as [[->%Z.eqb_eq ->%Z.eqb_eq]%andb_prop _]. split; [reflexivity|]. exact (Fin _ Hin).
Qed.

Lemma ws_check_none s s1 : ws_check s None = Some s1 -> s1 = s.
Proof.
  unfold ws_check. destruct (find_gaps s); [|discriminate]. destruct (dl_srcs s); [|destruct (existsb _ _)]; congruence.
Qed.

(* a range taken from the gaps consists of pieces that are neither done nor being written *)
Theorem gap_range_is_open s b e s1 : find_gaps s <> [] -> ws_check s (Some (b, e)) = Some s1 ->
  s1 = s /\ 0 <= b /\ b < e /\ e <= npieces s /\
  forall i, b <= i < e -> open_ (get_piece (base s) i) = true /\ get_owner s i = None.
Proof.
  intros Hne H. destruct (ws_check_some s b e s1 H) as [(_ & -> & A & B & C & D)|(Eg & _)]; [|congruence].
  split; [reflexivity|]. split; [exact A|]. split; [exact B|]. split; [exact C|].
  intros i Hi. exact (avail_ws_free s i (D i Hi)).
Qed.

(* a web seed stealing from another: the victim keeps its current piece *)
Theorem webseed_steal_splits s b e s1 : WInv s -> find_gaps s = [] -> ws_check s (Some (b, e)) = Some s1 ->
  exists k d, 0 <= k < zlen (srcs s) /\ get_src s k = Some d /\ b = steal_begin d /\ e = d_end d /\
              d_cur d < b /\ b < e /\
              get_src s1 k = Some {| d_begin := d_begin d; d_end := b; d_cur := d_cur d |} /\
              (forall j, b <= j < e -> get_owner s1 j = None).
Proof.
  intros I Eg H. destruct (ws_check_some s b e s1 H) as [[Hne _]|[_ G]]; [congruence|].
  destruct (G I) as (k & d & Hk & E & Hb & -> & Hlt & _ & U).
  destruct (rerange_cut s k d b s1 I Hk E Hlt U) as [G1 G2]. destruct Hlt. exists k, d. auto 10.
Qed.

(* the answer of findPieceRangeForWebseed, whichever of the legal ones it is, is a non-empty range of
   pieces inside the torrent none of which has a web-seed owner afterwards *)
Lemma ws_check_ok s obs s1 : WInv s -> ws_check s obs = Some s1 ->
  WInv s1 /\ base s1 = base s /\ zlen (srcs s1) = zlen (srcs s) /\
  (forall k, 0 <= k -> get_src s k = None -> get_src s1 k = None) /\
  match obs with
  | Some (b, e) => 0 <= b /\ b < e /\ e <= npieces s /\ forall j, b <= j < e -> get_owner s1 j = None
  | None => True
  end.
Proof.
  intros I H. destruct obs as [[b e]|]; [|apply ws_check_none in H; subst s1; auto 6].
  destruct (ws_check_some s b e s1 H) as [(_ & -> & A & B & C & D)|[_ G]].
  - assert (F : forall j, b <= j < e -> get_owner s j = None) by (intros j Hj; apply (avail_ws_free s j (D j Hj))). auto 10.
  - destruct (G I) as (k & d & Hk & E & -> & -> & Hlt & I' & U).
    destruct (w_dl s I k d Hk E) as (D1 & D2 & D3 & D4 & D5).
    split; [exact I'|]. split; [apply U|]. split; [apply U|]. split.
    + intros k0 Hk0 E0. rewrite (r_src _ _ _ _ U) by exact Hk0. destruct (Z.eqb_spec k0 k) as [->|]; [congruence|exact E0].
    + repeat split; try lia. apply (rerange_cut s k d (steal_begin d) s1 I Hk E Hlt U).
Qed.

(* PickWebseed + startWebseedDownloader keep the invariant *)
Lemma pick_webseed_ok s k obs s' : WInv s -> pick_webseed s k obs = Some s' ->
  WInv s' /\ base s' = base s.
Proof.
  intros I H. unfold pick_webseed in H. destruct (src_in_range s k) eqn:Er; [|discriminate].
  unfold src_in_range in Er. destruct (get_src s k) eqn:E; [discriminate|].
  destruct (ws_check s obs) as [s1|] eqn:Ec; [|discriminate].
  destruct (ws_check_ok s obs s1 I Ec) as (I1 & B1 & N1 & S1 & R1).
  destruct obs as [[b e]|]; [|inversion H; subst; auto].
  destruct R1 as (A & B & C & D).
  destruct ((b <? e) && range_owned s1 b e None); [|discriminate]. inversion H; subst s'.
  assert (Hk : 0 <= k < zlen (srcs s1)) by lia. pose proof (S1 k (proj1 Hk) E) as E1. split; [|exact B1].
  apply (winv_rerange s1 k (Some {| d_begin := b; d_end := e; d_cur := b |}) _ I1 Hk).
  - apply rerange_intro; [apply length_set_owner_range|exact Hk|]. intros j Hj.
    rewrite get_owner_set, E1 by (rewrite (zlen_owner s1 I1); exact Hj). reflexivity.
  - unfold npieces in *. rewrite B1. cbn [d_begin d_end d_cur]. split; [lia|]. split; [lia|]. split; [lia|]. intros j Hj. left. exact (D j Hj).
Qed.

Lemma peer_cand_iff s pe i : peer_cand s pe i = true <->
  In pe (p_having (get_piece (base s) i)) /\ p_req (get_piece (base s) i) = [].
Proof. unfold peer_cand. rewrite andb_true_iff, Nat.eqb_eq, length_zero_iff_nil, mem_true. tauto. Qed.

Lemma steal_cand_unreq s pe i : steal_cand s pe i = c_unreq_has pe (get_piece (base s) i).
Proof. unfold steal_cand, c_unreq_has. rewrite <- !andb_assoc. f_equal. apply andb_comm. Qed.

Lemma in_gap_cands s pe l c : In (l, c) (gap_cands s pe) <->
  exists g, In g (find_gaps s) /\ gap_cand s pe g = Some c /\ l = gap_len g.
Proof.
  unfold gap_cands. rewrite in_flat_map. split; intros (g & Hg & H); exists g; (split; [exact Hg|]).
  - destruct (gap_cand s pe g); [|destruct H]. destruct H as [H|[]]. inversion H; subst. split; reflexivity.
  - destruct H as [-> ->]. left. reflexivity.
Qed.

Lemma gap_pick_sound s pe i : ws_gap_legal s pe i = true ->
  in_range (base s) i = true /\ c_unreq_has pe (get_piece (base s) i) = true.
Proof.
  unfold ws_gap_legal. destruct (gap_cands s pe) as [|x r] eqn:E; [discriminate|]. intros H.
  apply existsb_exists in H as ([l c] & Hin & Hc). cbn [fst snd] in Hc. apply andb_prop in Hc as [_ ->%Z.eqb_eq].
  rewrite <- E in Hin. apply in_gap_cands in Hin as (g & Hg & Hcand & _).
  apply find_gaps_ok in Hg. destruct Hg as (A & B & C & D). apply find_down_some in Hcand as [Hin Hc2].
  destruct (avail_ws_free s i (D i Hin)) as [Ho _]. apply peer_cand_iff in Hc2 as [H1 H2].
  split; [apply in_range_spec; fold (npieces s); lia|apply c_unreq_has_spec; auto].
Qed.

Lemma peer_steal_go_spec s pe : forall ds k i, peer_steal_go s pe ds = Some (k, i) ->
  exists d, In (k, d) ds /\ d_cur d < i < d_end d /\ steal_cand s pe i = true.
Proof.
  induction ds as [|[k0 d0] r IH]; intros k i H; cbn [peer_steal_go] in H; [discriminate|].
  destruct (remaining d0 =? 0); [|destruct (find _ _) as [j|] eqn:Ef].
  2:{ inversion H; subst. apply find_down_some in Ef as [Hin Hc]. exists d0. split; [left; reflexivity|]. split; [lia|exact Hc]. }
  all: apply IH in H as (d & A & B); exists d; (split; [right; exact A|exact B]).
Qed.

(* PickFor while a web seed is downloading, with an answer: the peer is idle and unchokes us, the piece
   is in range, open, unrequested and held by the peer, and it is assigned either in the state as it is
   (last piece of the smallest gap) or after the range of a web seed has been cut at the piece (steal) *)
Lemma wpick_some s pe i af s' : WInv s -> downloading_ws s = true -> wpick_check s pe (Some (i, af)) = Some s' ->
  Dl (base s) pe = false /\ pe_choking (get_peer (peers (base s)) pe) = false /\
  (in_range (base s) i = true /\ c_unreq_has pe (get_piece (base s) i) = true) /\
  exists s1, s' = with_base s1 (assign_piece (base s) pe i af) /\ WInv s1 /\ base s1 = base s /\
    (gap_cands s pe = [] -> exists k d, 0 <= k < zlen (srcs s) /\ get_src s k = Some d /\ d_cur d < i < d_end d /\
       Rerange s k (Some {| d_begin := d_begin d; d_end := i; d_cur := d_cur d |}) s1).
Proof.
  intros I Hd H. unfold wpick_check in H. rewrite Hd in H. unfold Dl.
  destruct (pe_downloading (get_peer (peers (base s)) pe)); [discriminate|].
  destruct (pe_choking (get_peer (peers (base s)) pe)); [discriminate|].
  split; [reflexivity|]. split; [reflexivity|].
  destruct (gap_cands s pe) as [|x r] eqn:E.
  - destruct (peer_steal s pe) as [[k j]|] eqn:Es; [|discriminate].
    destruct ((i =? j) && _) eqn:Ec; [|discriminate]. apply andb_prop in Ec as [<-%Z.eqb_eq _].
    apply peer_steal_go_spec in Es as (d & Hin & Hr & Hc). apply in_dl_srcs in Hin as [Hk Ek].
    destruct (w_dl s I k d Hk Ek) as (D1 & D2 & D3 & D4 & D5).
    destruct (stop_at_ok s k d i I Hk Ek ltac:(lia)) as (s1 & Est & I1 & U). replace (d_cur d >=? i) with false in Est, U by lia.
    rewrite Est in H. inversion H; subst s'. rewrite steal_cand_unreq in Hc.
    split; [split; [apply in_range_spec; fold (npieces s); lia|exact Hc]|].
    exists s1. rewrite (r_base _ _ _ _ U). split; [reflexivity|]. split; [exact I1|]. split; [reflexivity|]. intros _.
    exists k, d. auto.
  - destruct (ws_gap_legal s pe i && _) eqn:Ec; [|discriminate]. apply andb_prop in Ec as [Ec _]. inversion H; subst s'.
    split; [apply gap_pick_sound; exact Ec|]. exists s. split; [reflexivity|]. split; [exact I|]. split; [reflexivity|discriminate].
Qed.

Lemma wpick_none s pe s' : downloading_ws s = true -> wpick_check s pe None = Some s' -> s' = s.
Proof.
  intros Hd H. unfold wpick_check in H. rewrite Hd in H.
  destruct (pe_downloading _); [|destruct (pe_choking _); [|destruct (gap_cands s pe); [destruct (peer_steal s pe) as [[k i]|]|]]];
    cbn [none_only] in H; congruence.
Qed.

(* C09 in web-seed mode: whatever the picker answers for a peer is a piece that is neither done nor
   being written, that the peer has, that nobody is downloading, for an idle peer that unchokes us *)
Theorem ws_pick_sound s pe i af s' : WInv s -> downloading_ws s = true -> wpick_check s pe (Some (i, af)) = Some s' ->
  (in_range (base s) i = true /\ open_ (get_piece (base s) i) = true /\
   In pe (p_having (get_piece (base s) i)) /\ p_req (get_piece (base s) i) = []) /\
  pe_downloading (get_peer (peers (base s)) pe) = false /\ pe_choking (get_peer (peers (base s)) pe) = false.
Proof.
  intros I Hd H. destruct (wpick_some s pe i af s' I Hd H) as (A & B & [Hr Hc] & _).
  apply c_unreq_has_spec in Hc as (Ho & Hq & Hh). auto.
Qed.

(* a peer stealing from a web seed: the piece leaves the web seed's range, the web seed keeps
   everything up to and including the piece it is working on *)
Theorem peer_steal_releases s pe i af s' : WInv s -> downloading_ws s = true -> gap_cands s pe = [] ->
  wpick_check s pe (Some (i, af)) = Some s' ->
  exists k d, 0 <= k < zlen (srcs s) /\ get_src s k = Some d /\ d_cur d < i < d_end d /\
              get_src s' k = Some {| d_begin := d_begin d; d_end := i; d_cur := d_cur d |} /\
              get_owner s' i = None.
Proof.
  intros I Hd Eg H. destruct (wpick_some s pe i af s' I Hd H) as (_ & _ & _ & s1 & -> & _ & _ & G).
  destruct (G Eg) as (k & d & Hk & E & Hr & U). exists k, d. split; [exact Hk|]. split; [exact E|]. split; [exact Hr|].
  destruct (rerange_cut s k d i s1 I Hk E Hr U) as [G1 G2]. split; [exact G1|apply G2; lia].
Qed.

(* C10 in web-seed mode: an idle unchoking peer that holds a piece which is neither done, being
   written, requested from a peer nor reserved for a web seed always gets a pick *)
Theorem ws_idle_holder_gets_a_pick s pe i : downloading_ws s = true ->
  let P := get_peer (peers (base s)) pe in let p := get_piece (base s) i in
  pe_downloading P = false -> pe_choking P = false ->
  in_range (base s) i = true -> avail_ws s i = true -> In pe (p_having p) -> p_req p = [] ->
  wpick_check s pe None = None.
Proof.
  intros Hd P p H1 H2 Hr Ha Hh Hq. unfold wpick_check. rewrite Hd. fold P. rewrite H1, H2.
  destruct (find_gaps_complete s i Hr Ha) as (g & Hg & Hi).
  assert (Hc : peer_cand s pe i = true) by (apply peer_cand_iff; split; assumption).
  destruct (gap_cand s pe g) as [c|] eqn:Ec; [|rewrite (find_down_none _ _ _ i Ec Hi) in Hc; discriminate].
  assert (Hin : In (gap_len g, c) (gap_cands s pe)) by (apply in_gap_cands; exists g; auto).
  destruct (gap_cands s pe); [destruct Hin|reflexivity].
Qed.

Lemma peer_steal_go_some s pe : forall ds k d i, In (k, d) ds -> remaining d <> 0 -> d_cur d < i < d_end d ->
  steal_cand s pe i = true -> peer_steal_go s pe ds <> None.
Proof.
  induction ds as [|[k0 d0] r IH]; intros k d i Hin Hrem Hr Hc; [destruct Hin|].
  cbn [peer_steal_go]. destruct Hin as [Hin|Hin].
  - inversion Hin; subst k0 d0. destruct (remaining d =? 0) eqn:E; [lia|].
    destruct (find _ _) as [j|] eqn:Ef; [discriminate|]. rewrite (find_down_none _ _ _ i Ef) in Hc by lia. discriminate.
  - destruct (remaining d0 =? 0); [eapply IH; eauto|].
    destruct (find _ _); [discriminate|eapply IH; eauto].
Qed.

(* C10 in web-seed mode, second half: a piece reserved for a web seed but beyond the piece
   the web seed is working on can be stolen by an idle peer that holds it *)
Theorem ws_idle_holder_can_steal s pe i k d : downloading_ws s = true ->
  let P := get_peer (peers (base s)) pe in let p := get_piece (base s) i in
  pe_downloading P = false -> pe_choking P = false ->
  0 <= k < zlen (srcs s) -> get_src s k = Some d -> remaining d <> 0 -> d_cur d < i < d_end d ->
  p_done p = false -> p_writing p = false -> In pe (p_having p) -> p_req p = [] ->
  wpick_check s pe None = None.
Proof.
  intros Hd P p H1 H2 Hk Ek Hrem Hr Hdone Hwr Hh Hq. unfold wpick_check. rewrite Hd. fold P. rewrite H1, H2.
  destruct (gap_cands s pe); [|reflexivity].
  assert (Hc : steal_cand s pe i = true).
  { rewrite steal_cand_unreq. apply c_unreq_has_spec. split; [apply open_spec; split; assumption|split; assumption]. }
  destruct (peer_steal s pe) as [[k' j]|] eqn:Es; [reflexivity|].
  exfalso. exact (peer_steal_go_some s pe (dl_srcs s) k d i (proj2 (in_dl_srcs s k d) (conj Hk Ek)) Hrem Hr Hc Es).
Qed.

Definition Inv3 (s : wpicker) : Prop := WInv s /\ PInv (base s) /\ AvInv (base s).

(* what a step does to the peer half: nothing, a step of the peer-half model, or the assignment of an
   open, unrequested piece to an idle peer that holds it *)
Definition peer_move (b b' : picker) : Prop :=
  b' = b \/ (exists o, pstep b o = Some b') \/
  exists pe i af, (in_range b i = true /\ c_unreq_has pe (get_piece b i) = true) /\ Dl b pe = false /\ b' = assign_piece b pe i af.

Lemma wstep_sim s o s' : WInv s -> wstep s o = Some s' -> WInv s' /\ peer_move (base s) (base s').
Proof.
  intros I H.
  assert (Hp : forall o', option_map (with_base s) (pstep (base s) o') = Some s' -> WInv s' /\ peer_move (base s) (base s')).
  { intros o' Ho. destruct (pstep (base s) o') as [b'|] eqn:Ep; [|discriminate]. inversion Ho; subst s'.
    split; [apply winv_base; [exact I|exact (pstep_len _ _ _ Ep)]|]. right. left. exists o'. exact Ep. }
  destruct o as [o0|k obs|k|k|i]; cbn [wstep] in H.
  - destruct o0 as [pe i|pe i|pe|pe|pe|pe obs|pe|pe|i|i ok]; try exact (Hp _ H).
    destruct (downloading_ws s) eqn:Hd.
    2:{ apply (Hp (OPick pe obs)). unfold wpick_check in H. rewrite Hd in H. exact H. }
    destruct obs as [[i af]|]; [|apply wpick_none in H; [subst s'; split; [exact I|left; reflexivity]|exact Hd]].
    destruct (wpick_some s pe i af s' I Hd H) as (D & _ & S & s1 & -> & I1 & B1 & _).
    split; [apply winv_base; [exact I1|rewrite B1; apply len_upd_piece]|]. right. right. exists pe, i, af. auto.
  - destruct (pick_webseed_ok s k obs s' I H) as [I' B']. split; [exact I'|left; exact B'].
  - destruct (src_in_range s k) eqn:Er; [|discriminate]. unfold src_in_range in Er.
    destruct (get_src s k) as [d|] eqn:E; [|discriminate]. destruct (d_cur d <? d_end d) eqn:Ec; [|discriminate]. inversion H; subst.
    split; [apply winv_advance; try assumption; lia|left; reflexivity].
  - destruct (src_in_range s k) eqn:Er; [|discriminate]. unfold src_in_range in Er.
    destruct (close_ws_ok s k I ltac:(lia)) as (s2 & E2 & I2 & B2). rewrite E2 in H. inversion H; subst. split; [exact I2|left; exact B2].
  - destruct (in_range (base s) i) eqn:Er; [|discriminate]. apply in_range_spec in Er.
    destruct (get_owner s i) as [k|] eqn:Eo; [|inversion H; subst; split; [exact I|left; reflexivity]].
    destruct (w_own s I i k Er Eo) as (Hk & d & Ek & Hr).
    destruct (stop_at_ok s k d i I Hk Ek Hr) as (s1 & Est & I1 & U). rewrite Est in H. inversion H; subst. split; [exact I1|left; apply U].
Qed.

Theorem wstep_inv s o s' : Inv3 s -> wstep s o = Some s' -> Inv3 s'.
Proof.
  intros (I & P & A) H. destruct (wstep_sim s o s' I H) as (I' & [E|[(o' & E)|(pe & i & af & [Hr Hc] & D & E)]]); (split; [exact I'|]).
  - rewrite E. split; assumption.
  - split; [exact (pstep_inv _ _ _ P E)|exact (pstep_av _ _ _ A E)].
  - rewrite E. destruct (c_unreq_has_offerable (base s) pe _ Hc) as (_ & _ & Hh & Hq). split; [apply assign_inv; assumption|].
    refine (upd_av (base s) i _ _ A). reflexivity.
Qed.

Fixpoint run_wops (s : wpicker) (ops : list wop) : option wpicker :=
  match ops with
  | [] => Some s
  | o :: r => match wstep s o with Some s' => run_wops s' r | None => None end
  end.

Lemma run_wops_inv (Q : wpicker -> Prop) : (forall s o s', Q s -> wstep s o = Some s' -> Q s') ->
  forall ops s s', Q s -> run_wops s ops = Some s' -> Q s'.
Proof. exact (run_inv wstep run_wops (fun _ => eq_refl) (fun _ _ _ => eq_refl) Q). Qed.

Lemma init_inv3 ps seq md nsrc mws : Forall (fun p => p_req p = [] /\ p_having p = []) ps -> Inv3 (init_ws ps seq md nsrc mws).
Proof.
  intros H. split; [|split].
  - assert (Hs : forall k, get_src (init_ws ps seq md nsrc mws) k = None) by (intros k; apply nth_repeat).
    constructor.
    + apply repeat_length.
    + intros i k _ Ho. unfold get_owner in Ho. cbn [init_ws owner] in Ho. rewrite nth_repeat in Ho. discriminate.
    + intros k d i _ E. rewrite Hs in E. discriminate.
    + intros k d _ E. rewrite Hs in E. discriminate.
  - apply init_inv. eapply Forall_impl; [|exact H]. intros p [A _]. exact A.
  - apply (init_av ps seq md). eapply Forall_impl; [|exact H]. intros p [_ A]. exact A.
Qed.

(* C09, web-seed half, every history: in every state reachable by any sequence of peer events, picks
   (whichever legal answer the picker gave), web-seed range assignments, stop-ats, closes and
   advances of the downloader goroutines, the owner index and the ranges describe each other, the
   peer-half invariants hold and the availability counter is exact *)
Theorem reachable_inv3 ps seq md nsrc mws ops s : Forall (fun p => p_req p = [] /\ p_having p = []) ps ->
  run_wops (init_ws ps seq md nsrc mws) ops = Some s -> Inv3 s.
Proof.
  intros H0. apply (run_wops_inv Inv3 wstep_inv). apply init_inv3. exact H0.
Qed.

(* none of the ownership assertions can fire in a reachable state: closing a source, stopping one at a
   piece it owns, and (third clause) the range test of PickWebseed, "already downloading from webseed url" *)
Theorem no_ownership_panic s : WInv s ->
  (forall k, 0 <= k < zlen (srcs s) -> close_ws s k <> None) /\
  (forall i k, 0 <= i < npieces s -> get_owner s i = Some k -> stop_at s k i <> None) /\
  (forall obs s1 b e, ws_check s obs = Some s1 -> obs = Some (b, e) -> (b <? e) && range_owned s1 b e None = true).
Proof.
  intros I. split; [|split].
  - intros k Hk. destruct (close_ws_ok s k I Hk) as (s' & E & _). congruence.
  - intros i k Hi Eo. destruct (w_own s I i k Hi Eo) as (Hk & d & Ek & Hr).
    destruct (stop_at_ok s k d i I Hk Ek Hr) as (s1 & Est & _). congruence.
  - intros obs s1 b e Ec ->. destruct (ws_check_ok s _ s1 I Ec) as (I1 & B1 & _ & _ & A & B & C & D).
    apply andb_true_intro. split; [lia|]. apply range_owned_intro; [exact A| |exact D]. rewrite (zlen_owner s1 I1). unfold npieces. rewrite B1. exact C.
Qed.

Example ws_inv_nonvacuous :
  exists s, run_wops (init_ws (repeat default_piece 4) false 2 2 1)
                     [WPickWs 0 (Some (0, 1)); WPickWs 1 (Some (1, 2)); WBase (OHave 7 3); WBase (OUnchoke 7);
                      WBase (OPick 7 (Some (3, false))); WAdvance 0] = Some s /\ get_owner s 1 = Some 1.
Proof. eexists. split; vm_compute; reflexivity. Qed.
