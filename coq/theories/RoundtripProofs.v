(* Connects NewPieces' output to the hypotheses of the write/read round trip. *)
From RainV Require Import Lib Geometry SectionIO PiecesProofs SectionIOProofs.

(* storage whose files have the lengths the metainfo says (what the allocator provides) *)
Definition storage_matches (st : storage) (fs : list file) : Prop :=
  length st = length fs /\ forall i f, nth_error fs i = Some f -> zlen (file_of st i) = flen f.

Lemma sec_in_wf st fs s : storage_matches st fs -> sec_in fs s -> sec_wf st s.
Proof.
  intros [Hl Hm] (f & Hn & Ho & Hs & Hb & _). split; [exact Hs|]. split; [exact Ho|]. intros _.
  rewrite (Hm _ _ Hn), Hl. split; [exact Hb|]. apply nth_error_Some. congruence.
Qed.

(* For every accepted info, every piece NewPieces builds, every storage of the right file
   sizes, every full-length buffer and every in-range (off, n): Write then ReadAt returns
   exactly buf[off, off+n) with padding bytes read as zeros, and no file outside the piece's
   non-padding files is modified (in particular padding files are never written).
   (That a piece is not empty follows from [wf_info].) *)
Theorem pieces_roundtrip files PL n L st : wf_info files PL n L -> storage_matches st files ->
  exists ps, new_pieces files PL L n = Ok ps /\
    forall p buf off k, In p ps -> zlen buf = plength p ->
      0 <= off -> 0 <= k -> off + k <= plength p ->
      exists st', write_secs st (psecs p) buf = Ok st' /\
        read_at st' (psecs p) off k = Ok (slice (mask (psecs p) buf) off k, 0) /\
        (forall i, ~ In i (nonpad_files (psecs p)) -> file_of st' i = file_of st i).
Proof.
  intros WF Hst. destruct (new_pieces_ok files PL n L WF) as (ps & E & Hlen & Hch & Hpl & Hnd).
  exists ps. split; [exact E|]. intros p buf off k Hin Hb Ho Hk Hr.
  rewrite Forall_forall in Hnd.
  apply chain_ok_inv in Hch as [_ Hall]. rewrite Forall_flat_map, Forall_forall in Hall.
  apply piece_lens_ok_Forall in Hpl. rewrite Forall_forall in Hpl. destruct (Hpl p Hin) as [Hs Hv].
  pose proof (wf_pl _ _ _ _ WF) as H1. pose proof (wf_lo _ _ _ _ WF) as H2.
  apply write_read_roundtrip; try lia.
  - eapply Forall_impl; [|exact (Hall p Hin)]. intros s. apply sec_in_wf. exact Hst.
  - intros Hnil. rewrite Hnil in Hs. cbn in Hs. lia.
  - apply NoDup_map_filter, Hnd, Hin.
Qed.
