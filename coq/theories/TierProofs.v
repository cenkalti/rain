From RainV Require Import Lib Tier.

(* The two-line abstract spec: the next member after [k] is [k] on success, [k+1 mod n] on failure. *)
Definition spec_next (n k : Z) (ok : bool) : Z := if ok then k else (k + 1) mod n.
Fixpoint spec_run (n k : Z) (pat : list bool) : list Z :=
  match pat with [] => [] | ok :: r => k :: spec_run n (spec_next n k ok) r end.

Section Fixed.
Variable n : Z.
Hypothesis Hn : 0 < n.

Lemma load_in_range s : 0 <= s < n -> load_index n s = s.
Proof. unfold load_index; intros; destruct (s >=? n) eqn:E; lia. Qed.

Lemma next_index_mod k : 0 <= k < n -> next_index true n k = (k + 1) mod n.
Proof.
  intros Hk. unfold next_index. destruct (k + 1 >=? n) eqn:E.
  - replace (k + 1) with n by lia. symmetry. apply Z.mod_same. lia.
  - symmetry. apply Z.mod_small. lia.
Qed.

Lemma announce_fixed s ok : 0 <= s < n ->
  announce true n s ok = (s, spec_next n s ok).
Proof.
  intros Hs. unfold announce. rewrite load_in_range by lia.
  unfold spec_next, cas. destruct ok; [reflexivity|].
  rewrite Z.eqb_refl, next_index_mod by lia. reflexivity.
Qed.

Lemma spec_next_range k ok : 0 <= k < n -> 0 <= spec_next n k ok < n.
Proof. unfold spec_next; destruct ok; intros; [lia|]. apply Z.mod_pos_bound; lia. Qed.

Theorem run_seq_is_spec : forall pat s, 0 <= s < n -> run_seq true n s pat = spec_run n s pat.
Proof.
  induction pat as [|ok r IH]; intros s Hs; [reflexivity|].
  cbn [run_seq spec_run]. rewrite announce_fixed by lia. f_equal.
  apply IH. apply spec_next_range; lia.
Qed.

Lemma final_seq_range : forall pat s, 0 <= s < n -> 0 <= final_seq true n s pat < n.
Proof.
  induction pat as [|ok r IH]; intros s Hs; cbn [final_seq]; [lia|].
  rewrite announce_fixed by lia. cbn [snd]. apply IH. apply spec_next_range; lia.
Qed.

Lemma spec_run_allfail : forall k s j, 0 <= s < n -> (j < k)%nat ->
  nth j (spec_run n s (repeat false k)) (-1) = (s + Z.of_nat j) mod n.
Proof.
  induction k as [|k IH]; intros s j Hs Hj; [lia|].
  cbn [repeat spec_run]. destruct j as [|j].
  - cbn [nth]. rewrite Z.add_0_r, Z.mod_small by lia. reflexivity.
  - cbn [nth]. rewrite IH; [|apply spec_next_range; lia|lia].
    unfold spec_next. rewrite Zplus_mod_idemp_l. f_equal. lia.
Qed.

(* A tracker that starts answering is reached after at most one full cycle of failures. *)
Theorem reached_within_one_cycle s target : 0 <= s < n -> 0 <= target < n ->
  exists j, (j < Z.to_nat n)%nat /\
    nth j (run_seq true n s (repeat false (Z.to_nat n))) (-1) = target.
Proof.
  intros Hs Ht. exists (Z.to_nat ((target - s) mod n)).
  assert (0 <= (target - s) mod n < n) by (apply Z.mod_pos_bound; lia).
  split; [lia|].
  rewrite run_seq_is_spec by lia. rewrite spec_run_allfail by lia.
  rewrite Z2Nat.id by lia. rewrite Zplus_mod_idemp_r.
  replace (s + (target - s)) with target by lia. apply Z.mod_small; lia.
Qed.

(* a tracker that answers keeps being used *)
Theorem success_keeps s k : 0 <= s < n ->
  run_seq true n s (repeat true k) = repeat s k.
Proof.
  intros Hs. rewrite run_seq_is_spec by lia. induction k as [|k IH]; [reflexivity|].
  cbn [repeat spec_run]. f_equal. exact IH.
Qed.

Definition cinv (s : cstate) : Prop :=
  0 <= stored_ s < n /\ Forall (fun tv => 0 <= snd tv < n) (inflight s).

Lemma remove_forall (P : Z * Z -> Prop) tid l : Forall P l -> Forall P (remove tid l).
Proof.
  induction 1 as [|[t w] r Hx Hr IH]; cbn [remove]; [constructor|].
  destruct (t =? tid); [assumption | constructor; assumption].
Qed.

Lemma cstep_inv s o : cinv s -> cinv (fst (cstep true n s o)).
Proof.
  intros [Hs Hf]. destruct o as [tid|tid ok]; cbn [cstep].
  - split; cbn [fst stored_ inflight]; [lia|]. constructor; [|assumption].
    cbn [snd]. rewrite load_in_range; lia.
  - destruct (lookup tid (inflight s)) as [v|]; cbn [fst]; [|split; assumption].
    split; cbn [stored_ inflight]; [|apply remove_forall; assumption].
    (* the stored index moves only when the loaded index [v] equals it, so [v] is in range then *)
    destruct ok; [lia|]. unfold cas. destruct (Z.eqb_spec (stored_ s) v) as [<-|]; [|lia].
    rewrite next_index_mod by lia. apply Z.mod_pos_bound. lia.
Qed.

Lemma cstep_out_range s o m : cinv s -> snd (cstep true n s o) = Some m -> 0 <= m < n.
Proof.
  intros [Hs _]. destruct o as [tid|tid ok]; cbn [cstep].
  - cbn [snd]. intros H; inversion H. rewrite load_in_range; lia.
  - destruct (lookup tid (inflight s)); cbn [snd]; discriminate.
Qed.

Theorem cfinal_inv : forall ops s, cinv s -> cinv (cfinal true n s ops).
Proof.
  induction ops as [|o r IH]; intros s H; cbn [cfinal]; [assumption|].
  apply IH, cstep_inv, H.
Qed.

(* every member index a concurrent history ever contacts is a valid slice index *)
Theorem crun_in_range : forall ops s, cinv s -> Forall (fun m => 0 <= m < n) (crun true n s ops).
Proof.
  induction ops as [|o r IH]; intros s H; cbn [crun]; [constructor|].
  pose proof (cstep_inv s o H) as Hi. pose proof (cstep_out_range s o) as Ho.
  destruct (cstep true n s o) as [s' out]. cbn [fst snd] in *.
  destruct out as [m|]; [constructor; [apply Ho; auto|]|]; apply IH; assumption.
Qed.

(* a finishing announce moves the tier by exactly one member if it failed on the member the
   tier still points at, and not at all otherwise: concurrent failures of one member advance
   the tier once, not several times *)
Theorem finish_effect s tid ok v : cinv s -> lookup tid (inflight s) = Some v ->
  stored_ (fst (cstep true n s (Finish tid ok))) =
    if negb ok && (stored_ s =? v) then (stored_ s + 1) mod n else stored_ s.
Proof.
  intros [Hs _] L. cbn [cstep]. rewrite L. cbn [fst stored_].
  destruct ok; cbn [negb andb]; [reflexivity|]. unfold cas.
  destruct (Z.eqb_spec (stored_ s) v) as [<-|]; [|reflexivity]. apply next_index_mod, Hs.
Qed.

Lemma cinit_inv : cinv cinit.
Proof. split; cbn; [lia|constructor]. Qed.
End Fixed.

(* The code as pinned violates the cycling law: after one full cycle of failures the stored
   index is n, reads as member 0, and CompareAndSwap(0, 1) fails forever. *)
Theorem tier_cycles_refuted_pinned :
  exists n s pat, 0 < n /\ 0 <= s < n /\ run_seq false n s pat <> spec_run n s pat.
Proof. exists 2, 0, [false; false; false; false]. split; [lia|split;[lia|]]. vm_compute. discriminate. Qed.

Example tier_example : run_seq true 3 0 [false; false; true; false; false] = [0; 1; 2; 2; 0].
Proof. reflexivity. Qed.
