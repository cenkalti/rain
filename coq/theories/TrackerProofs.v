(* UDP and HTTP tracker codecs: layout of the announce request, totality of the reply parsers, the
   bound on an HTTP reply. *)
From RainV Require Import Lib Wire Tracker.

Lemma len_be64 x : length (be64 x) = 8%nat. Proof. reflexivity. Qed.
Lemma len_be32 x : length (be32 x) = 4%nat. Proof. reflexivity. Qed.
Lemma len_be16 x : length (be16 x) = 2%nat. Proof. reflexivity. Qed.

Definition bytes (l : list Z) : Prop := Forall (fun b => 0 <= b < 256) l.

(* C15: the BEP 15 announce datagram carries info-hash, the full 20-byte peer id, the counters,
   the event, the key taken from the peer id and the port at their protocol offsets *)
Theorem udp_fields connid txid r url : length (a_ih r) = 20%nat -> length (a_pid r) = 20%nat ->
  let p := udp_announce true connid txid r url in
  firstn 8 p = be64 connid /\
  firstn 4 (skipn 8 p) = be32 1 /\
  firstn 4 (skipn 12 p) = be32 (txid mod two32) /\
  firstn 20 (skipn 16 p) = a_ih r /\
  firstn 20 (skipn 36 p) = a_pid r /\
  firstn 8 (skipn 56 p) = be64 (a_dl r) /\
  firstn 8 (skipn 64 p) = be64 (a_left r) /\
  firstn 8 (skipn 72 p) = be64 (a_ul r) /\
  firstn 4 (skipn 80 p) = be32 (a_event r mod two32) /\
  firstn 4 (skipn 88 p) = be32 (pid_key (a_pid r)) /\
  firstn 4 (skipn 92 p) = be32 (a_numwant r mod two32) /\
  firstn 2 (skipn 96 p) = be16 (a_port r mod 65536).
Proof.
  intros Hih Hpid p.
  assert (H : laid_out 0
    [(8, be64 connid); (4, be32 1); (4, be32 (txid mod two32)); (20, a_ih r); (20, a_pid r); (8, be64 (a_dl r));
     (8, be64 (a_left r)); (8, be64 (a_ul r)); (4, be32 (a_event r mod two32)); (4, be32 0);
     (4, be32 (pid_key (a_pid r))); (4, be32 (a_numwant r mod two32)); (2, be16 (a_port r mod 65536))]%nat
    (be16 0 ++ chunks255 (S (length url)) url) p).
  { refine (laid_out_app _ _ _ []). repeat constructor; first [apply len_be64 | apply len_be32 | apply len_be16 | assumption]. }
  cbv [laid_out Nat.add] in H.
  destruct H as (F0 & F8 & F12 & F16 & F36 & F56 & F64 & F72 & F80 & _ & F88 & F92 & F96 & _).
  repeat split; assumption.
Qed.

(* the key is the last four peer-id bytes (as the HTTP tracker sends them in hex) *)
Theorem udp_key_is_pid_tail pre a b c d : length pre = 16%nat -> bytes [a; b; c; d] ->
  be32 (pid_key (pre ++ [a; b; c; d])) = [a; b; c; d].
Proof.
  intros Hl Hb. unfold pid_key. rewrite (skipn_app_exact pre _ 16 Hl).
  unfold bytes in Hb. rewrite !Forall_cons_iff in Hb.
  unfold be32, rd_be32. repeat f_equal; Z.div_mod_to_equations; lia.
Qed.

Theorem udp_fields_refuted_pinned : exists connid txid r url,
  length (a_ih r) = 20%nat /\ length (a_pid r) = 20%nat /\
  firstn 20 (skipn 36 (udp_announce false connid txid r url)) <> a_pid r.
Proof.
  exists 0, 0, {| a_ih := repeat 1 20; a_pid := repeat 7 20; a_dl := 0; a_left := 0; a_ul := 0; a_event := 0;
                  a_numwant := 0; a_port := 1 |}, [].
  split; [reflexivity|split; [reflexivity|]]. vm_compute. discriminate.
Qed.

Lemma compact_peers_wf : forall fuel b, bytes b ->
  Forall (fun p => 0 <= fst p < two32 /\ 0 <= snd p < 65536) (compact_peers fuel b).
Proof.
  induction fuel as [|f IH]; intros b Hb; [constructor|]. cbn [compact_peers].
  destruct b as [|a [|b1 [|c [|d [|p1 [|p2 r]]]]]]; try constructor.
  - unfold bytes in Hb. rewrite !Forall_cons_iff in Hb. cbn [fst snd]. unfold rd_be32, two32. lia.
  - apply IH. exact (Forall_skipn _ 6 _ Hb).
Qed.

(* the HTTP path decodes its compact peer string with the same function *)
Theorem compact_reply_total s ps : bytes s -> decode_compact s = Some ps ->
  Forall (fun p => 0 <= fst p < two32 /\ 0 <= snd p < 65536) ps.
Proof.
  intros Hb H. unfold decode_compact in H. destruct (zlen s mod 6 =? 0); [|discriminate].
  inversion H; subst. apply compact_peers_wf. exact Hb.
Qed.

(* C16: whatever bytes a UDP tracker replies with, the result is an error or well-formed IPv4
   peers; the action must be "announce" *)
Theorem udp_reply_total d : bytes d ->
  match parse_udp_announce d with
  | None => True
  | Some (_, _, _, ps) => Forall (fun p => 0 <= fst p < two32 /\ 0 <= snd p < 65536) ps /\
                          rd_be32 (nth 0 d 0) (nth 1 d 0) (nth 2 d 0) (nth 3 d 0) = 1
  end.
Proof.
  intros Hb. unfold parse_udp_announce.
  do 20 (destruct d as [|? d]; [exact I|]).
  destruct (rd_be32 _ _ _ _ =? 1) eqn:E; [|exact I].
  destruct (decode_compact d) as [ps|] eqn:Ec; [|exact I].
  split; [|cbn [nth]; lia]. exact (compact_reply_total d ps (Forall_skipn _ 20 _ Hb) Ec).
Qed.

(* whatever the tracker declares and however much it streams, at most [limit] bytes of the reply
   are read, and they are a prefix of what was sent *)
Theorem read_reply_bounded limit declared stream got : 0 <= limit -> read_reply limit declared stream = Some got ->
  zlen got <= limit /\ exists rest, stream = got ++ rest.
Proof.
  intros Hl H.
  assert (E : got = firstn (Z.to_nat limit) stream).
  { unfold read_reply in H. destruct declared as [n|]; [destruct (n >? limit); [discriminate|]|]; inversion H; reflexivity. }
  subst got. split.
  - unfold zlen. rewrite firstn_length. lia.
  - exists (skipn (Z.to_nat limit) stream). symmetry. apply firstn_skipn.
Qed.
