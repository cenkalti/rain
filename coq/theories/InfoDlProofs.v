(* The info downloader keeps its buffer at the announced size, whatever blocks arrive or are requested. *)
From RainV Require Import Lib InfoDl.

(* buffer and block list fit the announced size; every block is non-empty, at most a block long, and lies
   within the announced size at its offset *)
Definition IInv (size : Z) (d : idl) : Prop :=
  zlen (i_bytes d) = size /\ zlen (i_blocks d) = num_blocks size /\
  forall k b, nth_error (i_blocks d) k = Some b ->
    0 < b_size b <= mblock /\ Z.of_nat k * mblock + b_size b <= size.

(* the sizes create_blocks gives the blocks tile the announced size *)
Lemma num_blocks_spec size : 0 <= size ->
  0 <= num_blocks size /\
  forall k, 0 <= k < num_blocks size ->
    let sz := if (k =? num_blocks size - 1) && negb (size mod mblock =? 0) then size mod mblock else mblock in
    0 < sz <= mblock /\ k * mblock + sz <= size.
Proof.
  intros H. unfold num_blocks, mblock. destruct (size mod 16384 =? 0) eqn:Em; cbn [negb].
  - split; [Z.div_mod_to_equations; lia|]. intros k Hk. rewrite andb_false_r. cbn zeta. Z.div_mod_to_equations. lia.
  - split; [Z.div_mod_to_equations; lia|]. intros k Hk. rewrite andb_true_r. cbn zeta.
    destruct (k =? size / 16384 + 1 - 1) eqn:Ek; Z.div_mod_to_equations; lia.
Qed.

Lemma nth_error_map_seq {A} (f : nat -> A) n k b : nth_error (map f (seq 0 n)) k = Some b -> (k < n)%nat /\ b = f k.
Proof.
  intros H. assert (Hk : (k < n)%nat) by (rewrite <- (seq_length n 0), <- (map_length f); apply nth_error_Some; congruence).
  split; [exact Hk|]. apply nth_error_nth with (d := f 0%nat) in H. rewrite map_nth, seq_nth in H by exact Hk. auto.
Qed.

Lemma new_inv size : 0 <= size -> IInv size (idl_new size).
Proof.
  intros Hs. unfold IInv, idl_new. cbn [i_bytes i_blocks]. destruct (num_blocks_spec size Hs) as [Hn Hb].
  split; [unfold zlen; rewrite repeat_length; lia|]. split.
  - unfold create_blocks, zlen. rewrite map_length, seq_length. lia.
  - intros k b H. apply nth_error_map_seq in H as [Hk ->]. cbn [b_size]. apply Hb. lia.
Qed.

Lemma splice_len bytes begin data : 0 <= begin -> begin + zlen data <= zlen bytes ->
  zlen (splice bytes begin data) = zlen bytes.
Proof.
  intros Hb Hl. unfold splice, zlen in *. rewrite !app_length, firstn_length, skipn_length. lia.
Qed.

(* C13: GotBlock never writes outside the buffer -- for any index, any data, any order,
   duplicates included -- and the buffer keeps the announced size *)
Theorem got_block_safe size d index data : IInv size d ->
  IInv size (fst (got_block d index data)) /\
  (snd (got_block d index data) = IOk ->
     0 <= index * mblock /\ index * mblock + zlen data <= size).
Proof.
  intros I. pose proof I as (Hbt & Hn & Hblk). unfold got_block.
  destruct ((index <? 0) || (index >=? zlen (i_blocks d))) eqn:E1; [split; [exact I|discriminate]|].
  set (blk := nth (Z.to_nat index) (i_blocks d) _).
  destruct (negb (b_requested blk)); [split; [exact I|discriminate]|].
  destruct (negb (zlen data =? b_size blk)) eqn:E3; [split; [exact I|discriminate]|].
  assert (Hnth : nth_error (i_blocks d) (Z.to_nat index) = Some blk).
  { unfold blk. apply nth_error_nth'. unfold zlen in E1. lia. }
  destruct (Hblk _ _ Hnth) as [H1 H2]. rewrite Z2Nat.id in H2 by lia.
  assert (Hd : zlen data = b_size blk) by lia.
  split; [|intros _; unfold mblock in *; lia].
  split; [cbn [fst i_bytes]; rewrite splice_len; unfold mblock in *; lia|]. split; [exact Hn|exact Hblk].
Qed.

Lemma set_req_sizes l i : map b_size (set_req l i) = map b_size l.
Proof.
  unfold set_req. rewrite map_map. generalize 0%nat.
  induction l as [|x r IH]; intros st; cbn [length seq combine map]; [reflexivity|].
  f_equal; [cbn [fst snd]; destruct (Z.of_nat st =? i); reflexivity|apply IH].
Qed.

Theorem request_blocks_inv size : forall fuel d q acc, IInv size d -> IInv size (fst (request_blocks fuel d q acc)).
Proof.
  induction fuel as [|f IH]; intros d q acc I; cbn [request_blocks]; [exact I|].
  destruct ((i_next d <? zlen (i_blocks d)) && (i_pending d <? q)); [|exact I].
  apply IH. destruct I as (Hb & Hn & Hblk). pose proof (set_req_sizes (i_blocks d) (i_next d)) as Hs.
  split; [exact Hb|]. split; cbn [i_blocks].
  - apply (f_equal (@length Z)) in Hs. rewrite !map_length in Hs. unfold zlen in *. rewrite Hs. exact Hn.
  - intros k b H. apply (map_nth_error b_size) in H. rewrite Hs, nth_error_map in H.
    destruct (nth_error (i_blocks d) k) as [b0|] eqn:E; [|discriminate]. cbn [option_map] in H. injection H as <-. exact (Hblk k b0 E).
Qed.
