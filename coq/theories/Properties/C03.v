(* C03 — upload integrity (read path): served bytes are exact whatever the read cache does. *)
From RainV Require Import Lib Geometry SectionIO Cache CacheProofs Wire WireProofs Admission AdmissionProofs.

(* for every piece content, every read-cache block size rs > 0 and every request position
   inside the piece -- aligned or not to 16 KiB blocks or to rs -- the bytes handed to the
   writer are exactly bytes [off, off+n) of the piece *)
Theorem C03_cached_read_exact : forall c plen rs off n,
  zlen c = plen -> 0 < rs -> 0 <= off -> 0 <= n -> off + n <= plen ->
  cached_read true c plen rs off n = slice c off n.
Proof. exact cached_read_exact. Qed.
Print Assumptions C03_cached_read_exact.

Theorem C03_cached_read_refuted_on_pinned_code : exists c plen rs off n,
  zlen c = plen /\ 0 < rs /\ 0 <= off /\ 0 <= n /\ off + n <= plen /\
  cached_read false c plen rs off n <> slice c off n.
Proof. exact cached_read_refuted_pinned. Qed.
Print Assumptions C03_cached_read_refuted_on_pinned_code.

(* the piece message then carries exactly those n bytes after index and begin *)
Theorem C03_piece_frame_exact : forall c plen rs i b n,
  zlen c = plen -> 0 < rs -> 0 <= b -> 0 <= n -> b + n <= plen ->
  body (PieceM i b (cached_read true c plen rs b n)) = be32 i ++ be32 b ++ slice c b n.
Proof. intros. cbn [body]. rewrite cached_read_exact by assumption. reflexivity. Qed.
Print Assumptions C03_piece_frame_exact.

(* the read cache never holds more than its configured size, for every sequence of Get calls *)
Theorem C03_cache_bounded : forall mx, 0 <= mx -> forall ops : list (Z * Z), Forall (fun o => 0 <= snd o) ops ->
  let c := fold_left (fun c o => fst (cache_get c (fst o) (snd o))) ops (cache_init mx) in
  CInv c /\ 0 <= ctotal c <= mx.
Proof. exact cache_bounded. Qed.
Print Assumptions C03_cache_bounded.

(* request admission: data only for in-bounds, non-empty, <= 16 KiB requests of pieces the client
   has; while choking only for allowed-fast pieces of fast-extension peers *)
Theorem C03_served_only_if : forall PL total np done fast idx b len cc af,
  serve PL total np done fast idx b len cc af = DPiece ->
  idx < np /\ done idx = true /\ 0 < len <= 16384 /\ b + len <= piece_len PL total np idx /\
  (cc = false \/ (fast = true /\ af = true)) \/ len < 0.
Proof. exact served_only_if. Qed.
Print Assumptions C03_served_only_if.

Theorem C03_no_wraparound : forall begin len plen, 0 <= begin < two32a -> 0 <= len < two32a -> 0 <= plen < two32a ->
  valid_request begin len plen = true -> begin < plen /\ begin + len <= plen /\ len <> 0.
Proof. exact no_wraparound. Qed.
Print Assumptions C03_no_wraparound.

(* the peer writer's queue: when a choke is queued, every piece message still waiting in the queue is
   dropped (none is sent after the client started choking), for every queue content; and the number of
   waiting pieces never exceeds the configured bound, for every sequence of operations *)
Theorem C03_choke_flushes_queued_pieces : forall maxq fast q,
  existsb Wire.is_piece (Wire.wq_op maxq fast q Wire.Choke) = false.
Proof. exact WireProofs.choke_flushes_queued_pieces. Qed.
Print Assumptions C03_choke_flushes_queued_pieces.
Theorem C03_writer_queue_bounded : forall maxq fast ms, 0 <= maxq ->
  Wire.count_pieces (fold_left (Wire.wq_op maxq fast) ms []) <= maxq.
Proof. exact WireProofs.writer_queue_bounded. Qed.
Print Assumptions C03_writer_queue_bounded.

(* the key under which a block sits in the shared read cache is fixed width (id, piece index, block
   number): different triples never share a key, so a request is never answered from the cached block
   of another piece or another torrent (behaviour tied by kind 305) *)
From RainV Require Import CacheKey.
Theorem C03_cache_key_injective : forall id id' p p' b b', length id = length id' -> u32 p -> u32 p' -> u32 b -> u32 b' ->
  cache_key id p b = cache_key id' p' b' -> id = id' /\ p = p' /\ b = b'.
Proof. exact cache_key_injective. Qed.
Print Assumptions C03_cache_key_injective.
