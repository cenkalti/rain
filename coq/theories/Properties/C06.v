(* C06 — untrusted metainfo is rejected or well-formed; starting it terminates. *)
From RainV Require Import Lib Geometry Meta MetaProofs PiecesProofs.

Theorem C06_accept_wf : forall padopt d i,
  Forall (fun f => int64 (dlen f)) (d_files d) -> int64 (d_single d) ->
  0 <= d_npb d -> d_npb d / 20 < 2147483648 ->
  accept true padopt d = Some i ->
  wf_info (i_files i) (i_pl i) (Z.to_nat (i_n i)) (i_len i) /\ 0 < i_n i /\ i_pl i < two32.
Proof. exact accept_wf. Qed.
Print Assumptions C06_accept_wf.

Theorem C06_accepted_pieces_terminate : forall padopt d i,
  Forall (fun f => int64 (dlen f)) (d_files d) -> int64 (d_single d) ->
  0 <= d_npb d -> d_npb d / 20 < 2147483648 ->
  accept true padopt d = Some i ->
  exists ps, new_pieces (i_files i) (i_pl i) (i_len i) (Z.to_nat (i_n i)) = Ok ps /\
    length ps = Z.to_nat (i_n i) /\
    Forall (fun p => exists bl, calc_blocks true 16384 (psecs p) = Ok bl) ps.
Proof. exact accepted_pieces_terminate. Qed.
Print Assumptions C06_accepted_pieces_terminate.

Theorem C06_accept_wf_refuted_on_pinned_code :
  exists padopt d i, Forall (fun f => int64 (dlen f)) (d_files d) /\
    accept false padopt d = Some i /\ ~ Forall (fun f => 0 <= flen f) (i_files i).
Proof. exact accept_wf_refuted_pinned. Qed.
Print Assumptions C06_accept_wf_refuted_on_pinned_code.

(* the decoder recurses once per nesting level: every accepted torrent file or info dictionary has at most
   64 levels of lists and dictionaries (deeper input is refused before it is decoded) *)
Theorem C06_accepted_nesting_bounded : forall w n k, run_nesting [w; n; k] = [1] -> nesting_levels w n <= max_nesting.
Proof. exact accepted_nesting_bounded. Qed.
Print Assumptions C06_accepted_nesting_bounded.

(* the nesting scan in front of every decoder fed from outside (internal/bencodedepth Check, kind 603):
   for every byte string it terminates within len+1 iterations without indexing outside the input
   (the string length is accumulated in a Go int with wrap-around: the guard inside the digit loop is
   what keeps it from wrapping) and answers "fine" or "too deep" *)
From RainV Require Import Depth.
Theorem C06_depth_scan_total : forall b, zlen b < 100000000000000000 -> Forall (fun c => 0 <= c < 256) b ->
  depth_check b = DOk \/ depth_check b = DTooDeep.
Proof. intros b Hl _. exact (check_total b Hl). Qed.
Print Assumptions C06_depth_scan_total.
