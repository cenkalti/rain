(* C04 — lifecycle safety: no crash, truthful status, commands take effect (model of the repaired code). *)
From RainV Require Import Lib Life LifeProofs LifeProofs3.

(* for every sequence of start / stop / verify commands, allocation, verification, piece-write and
   stop-announce results released in any order relative to the commands, and every change made to
   the files (corrupt, delete some or all, restore), in every reachable state of the repaired
   handlers: no crash; Seeding only with a bitfield of all ones; Stopped and Stopping only with no
   data file open; a verify request is never pending while the torrent runs *)
Theorem C04_truthful_status_no_crash : forall fx pk nf es, all_legal true (life_init fx pk nf) es ->
  let s := run_evs true (life_init fx pk nf) es in
  crashed s = false /\
  (status s = 2 -> exists b, bf s = Some b /\ all_true b = true) /\
  (status s = 0 \/ status s = 6 -> held s + pending s + leaked s = 0) /\
  (status s = 1 \/ status s = 2 -> do_verify s = false).
Proof. exact life_truthful. Qed.
Print Assumptions C04_truthful_status_no_crash.

(* the pinned handlers violate each clause; each witness is a short history replayed against the
   real event loop by kind 401 (fixes D10/D11, D22, D23, D24) *)
Theorem C04_refuted_on_pinned_code_crash :
  crashed (run_evs false (life_init [true] [true] 1)
             (w_complete ++ [EMutate [true] [false]; EVerify; EAlloc true false [false] [false] [true]; EVerDone; EStopped;
                             EStart; EAlloc true false [false] [false] [true]; EPiece 0])) = true.
Proof. exact pinned_crashes_on_second_completion. Qed.
Print Assumptions C04_refuted_on_pinned_code_crash.

Theorem C04_refuted_on_pinned_code_seeding_without_data :
  let s := run_evs false (life_init [true] [true] 1)
             (w_complete ++ [EMutate [false] [false]; EStart; EAlloc false true [false] [false] [true]]) in
  status s = 2 /\ bf s = Some [false].
Proof. exact pinned_seeds_without_data. Qed.
Print Assumptions C04_refuted_on_pinned_code_seeding_without_data.

Theorem C04_refuted_on_pinned_code_start_dropped :
  status (run_evs false (life_init [false] [false] 1) [EStart; EStop; EStart; EStopped]) = 0 /\
  status (run_evs true (life_init [false] [false] 1) [EStart; EStop; EStart; EStopped]) = 4.
Proof. exact pinned_drops_start_while_stopping. Qed.
Print Assumptions C04_refuted_on_pinned_code_start_dropped.

Theorem C04_refuted_on_pinned_code_verify_without_data :
  let s := run_evs false (life_init [false] [false] 1) [EVerify; EAlloc false true [false] [false] [true]] in
  status s = 1 /\ do_verify s = true.
Proof. exact pinned_verify_without_data_downloads. Qed.
Print Assumptions C04_refuted_on_pinned_code_verify_without_data.

Theorem C04_refuted_on_pinned_code_open_files_when_stopped :
  let s := run_evs false (life_init [false] [false] 1) [EStart; EStop; EStopped] in
  status s = 0 /\ held s + pending s + leaked s = 1.
Proof. exact pinned_leaks_handles. Qed.
Print Assumptions C04_refuted_on_pinned_code_open_files_when_stopped.
