(* C05 — crash-consistent resume: persisted progress never runs ahead of disk data. *)
From RainV Require Import Lib Life CrashProofs.

(* for every history of commands, worker results, piece writes and periodic / stop / completion /
   verification writes of the resume data in which only the client touches the files, at every
   instant: a piece in the bitfield has its content on disk, and so has every piece in the bitfield
   stored in the resume database.  A crash can only leave this pair (database, files) behind: a piece
   write is in the model one step that follows the storage writes, so a crash between the file
   writes of a piece leaves the piece unmarked (the correspondence takes snapshots between them). *)
Theorem C05_resume_never_ahead_of_disk : forall fx pk nf es, all_env (life_init_c fx pk nf) es ->
  BInv (run_evs_c (life_init_c fx pk nf) es).
Proof. exact persisted_behind_disk. Qed.
Print Assumptions C05_resume_never_ahead_of_disk.

(* whatever subset of files is missing at restart: with every file present the resume bitfield is
   trusted, with none the client starts from scratch, otherwise everything is re-verified; in each
   case a piece the restarted client holds has its content on disk *)
Theorem C05_restart_claims_only_data_on_disk : forall pers padonly pk fex, osub pers pk -> sub padonly pk ->
  sub (fst (restart_bits true pers padonly pk fex)) pk.
Proof. exact restart_sound. Qed.
Print Assumptions C05_restart_claims_only_data_on_disk.

(* a resume bitfield is only trusted when no file is missing *)
Theorem C05_missing_files_are_not_trusted : forall b padonly pk fex, existsb negb fex = true ->
  fst (restart_bits true (Some b) padonly pk fex) = padonly \/ fst (restart_bits true (Some b) padonly pk fex) = pk.
Proof. exact missing_files_are_not_trusted. Qed.
Print Assumptions C05_missing_files_are_not_trusted.

(* a change made to the files behind the client's back breaks the containment only until the next
   allocation result is handled: whatever the state was (any bitfield in memory, any bitfield in the
   resume database), once files have been noticed missing both describe the disk again -- so a crash
   after that point cannot bring the stale bitfield back (fix D25) *)
Theorem C05_missing_files_restore_the_invariant : forall s he po, alloc s = true -> sub po (pok s) ->
  BInv (alloc_done true s he true po).
Proof. exact missing_files_restore_the_invariant. Qed.
Print Assumptions C05_missing_files_restore_the_invariant.
