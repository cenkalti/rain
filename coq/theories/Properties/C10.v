(* C10 — downloads complete whenever an honest full source is reachable (partial: see MANIFEST note). *)
From RainV Require Import Lib Geometry PieceDl Leech LeechProofs.

(* "No idle, unchoked peer holding a needed and unrequested piece is left without a request":
   [elig s p] says exactly that peer p is open, idle, unchoking us and holds a piece that is neither
   done nor being written nor downloaded by anybody.  After every handler of a history whose
   observed choices were all accepted by the model ([s_bad = 0], which the correspondence check
   establishes for the real event loop on every generated history), no peer is in that situation. *)
Theorem C10_no_idle_unchoked_peer : forall fixed s ev bits asg,
  let s' := fst (lstep fixed s ev bits asg) in
  s_bad s' = 0 -> forall p, elig s' p = false.
Proof. intros fixed s ev bits asg s' H. apply (step_no_idle fixed s ev bits asg H). Qed.
Print Assumptions C10_no_idle_unchoked_peer.

(* the acceptance flag is sticky: an accepted last state means every earlier step was accepted too *)
Theorem C10_acceptance_is_sticky : forall fixed s ev bits asg, s_bad (fst (lstep fixed s ev bits asg)) = 0 -> s_bad s = 0.
Proof. exact bad_sticky. Qed.
Print Assumptions C10_acceptance_is_sticky.

(* the pinned event loop did not re-run the picker when a downloading peer was closed: in the
   model of the pinned code ([fixed = false]) a full seed is left idle for ever (fix D20);
   the replay is the history below: peer 1 downloads the only piece, peer 0 (a seed, unchoking)
   is idle because the end-game limit is 1, peer 1 disconnects. *)
Definition d20_state : lst :=
  let q0 := {| q_present := true; q_closed := false; q_choking := false; q_fast := false; q_has := [true]; q_af := [];
               q_dl := None; q_int := true; q_reqq := -1; q_frames := [] |} in
  let q1 := {| q_present := true; q_closed := false; q_choking := false; q_fast := false; q_has := [true]; q_af := [];
               q_dl := Some {| l_idx := 0; l_af := false; l_pd := pdl_new [{| bbeg := 0; blen := 4004 |}] 0 false false;
                               l_good := true; l_hist := [] |}; q_int := true; q_reqq := -1; q_frames := [] |} in
  {| s_blocks := [[{| bbeg := 0; blen := 4004 |}]]; s_secs := [[]]; s_done := [false]; s_writing := [false];
     s_peers := [q0; q1]; s_inflight := None; s_banned := []; s_completed := false; s_q := 1; s_maxdup := 1;
     s_stopped := false; s_inhist := []; s_written := []; s_bad := 0 |}.
Theorem C10_refuted_on_pinned_code :
  elig d20_state 0 = false /\
  elig (fst (dispatch false d20_state 11 1 0 0 0 0 [])) 0 = true /\
  snd (dispatch false d20_state 11 1 0 0 0 0 []) = [] /\
  snd (dispatch true d20_state 11 1 0 0 0 0 []) = [0].
Proof. vm_compute. repeat split; reflexivity. Qed.
Print Assumptions C10_refuted_on_pinned_code.

(* progress of the block pipeline inside one download is C01's piece-downloader model (kind 102);
   completion with correct files when the last piece is written is C01_session_integrity + C02. *)

(* ---- the picker never leaves an idle holder without a piece (Picker.v / PickerWs.v, kinds 901 / 903) ---- *)
From RainV Require Import Picker PickerProofs PickerWs PickerWsProofs.
(* whenever the loop asks the picker for a peer that is idle and unchoking us and holds a piece that
   is neither done, being written nor requested, the picker has a piece for it (any end-game limit
   of at least 1, both modes, any state): "no piece" is not an answer it may give *)
Theorem C10_idle_holder_always_gets_a_piece : forall s pe i, 1 <= maxdup s ->
  let P := get_peer (peers s) pe in let p := get_piece s i in
  pe_downloading P = false -> pe_choking P = false ->
  in_range s i = true -> p_done p = false -> p_writing p = false -> In pe (p_having p) -> p_req p = [] ->
  pick_possible s (fst (find_piece s pe)) = true /\ pick_check s pe None = None.
Proof. intros s pe i H P p H1 H2 H3 H4 H5 H6 H7. split; [eapply idle_holder_gets_a_pick|eapply no_pick_is_illegal]; eauto. Qed.
Print Assumptions C10_idle_holder_always_gets_a_piece.

(* with an end-game limit of 0 this is false (configuration note in DESIGN) *)
Theorem C10_endgame_limit_zero_starves : exists s pe, pe_downloading (get_peer (peers s) pe) = false /\
  pe_choking (get_peer (peers s) pe) = false /\ In pe (p_having (get_piece s 0)) /\ p_req (get_piece s 0) = [] /\
  p_done (get_piece s 0) = false /\ pick_possible s (fst (find_piece s pe)) = false.
Proof.
  exists {| pieces := [{| p_done := false; p_writing := false; p_having := [7]; p_req := []; p_snub := []; p_chok := []; p_head := false; p_tail := false |}];
            peers := [(7, {| pe_choking := false; pe_downloading := false; pe_af := []; pe_piece := None |})];
            avail := 1; endgame := true; sequential := false; maxdup := 0 |}, 7.
  repeat split; try exact endgame_limit_zero_starves; try reflexivity. left; reflexivity.
Qed.
Print Assumptions C10_endgame_limit_zero_starves.

(* the same while a web seed is downloading, for a piece that is not reserved for a web seed *)
Theorem C10_idle_holder_gets_a_piece_in_webseed_mode : forall s pe i, downloading_ws s = true ->
  let P := get_peer (peers (base s)) pe in let p := get_piece (base s) i in
  pe_downloading P = false -> pe_choking P = false ->
  in_range (base s) i = true -> avail_ws s i = true -> In pe (p_having p) -> p_req p = [] ->
  wpick_check s pe None = None.
Proof. exact ws_idle_holder_gets_a_pick. Qed.
Print Assumptions C10_idle_holder_gets_a_piece_in_webseed_mode.

(* ... and for a piece that IS reserved for a web seed but lies beyond the piece the web seed is working
   on: the idle holder steals it (so the only needed pieces an idle holder is not given are the ones a
   web seed is fetching at this moment) *)
Theorem C10_idle_holder_steals_from_a_webseed : forall s pe i k d, downloading_ws s = true ->
  let P := get_peer (peers (base s)) pe in let p := get_piece (base s) i in
  pe_downloading P = false -> pe_choking P = false ->
  0 <= k < zlen (srcs s) -> get_src s k = Some d -> remaining d <> 0 -> d_cur d < i < d_end d ->
  p_done p = false -> p_writing p = false -> In pe (p_having p) -> p_req p = [] ->
  wpick_check s pe None = None.
Proof. exact ws_idle_holder_can_steal. Qed.
Print Assumptions C10_idle_holder_steals_from_a_webseed.
