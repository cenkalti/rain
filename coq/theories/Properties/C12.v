(* C12 — MSE handshake/stream correct for all pads and chunkings; forced encryption holds. *)
From RainV Require Import Lib Mse MseProofs MseProofs2.

(* Two parties that hold the same stream key.  For every public key, every pad of 0..512 bytes on each of
   the four pads, every initial payload up to 65535 bytes, every set of offered methods, every selection
   callback of the responder, and every fragmentation of the transport (the first read of a side returns
   anything between 96 bytes and its whole first message): if the responder's choice is a single offered
   method, both sides complete, agree on it, the initial payload arrives intact and every byte written
   afterwards by either side is read unchanged by the other.  The two [no_early] premises say that the
   synchronisation patterns (a SHA-1 value; 8 bytes of RC4 key stream) do not occur inside the random
   padding before their real position. *)
Theorem C12_same_key_both_complete_and_agree :
  forall ya padA yb padB ia provide lenC lenD pol polk o known chunksAB chunksBA f1 f2,
  zlen ya = 96 -> zlen yb = 96 -> zlen (o_req1 o) = 20 -> zlen (o_req2 o) = 20 -> zlen (o_req3 o) = 20 ->
  0 < provide < 4294967296 -> 0 <= lenC < 65536 -> 0 <= lenD < 65536 -> zlen ia < 65536 -> 0 <= polk < 4294967296 ->
  zlen padA <= 512 -> zlen padB <= 512 ->
  first_read chunksAB 0 = Some f1 -> f1 <= 96 + zlen padA ->
  first_read chunksBA 0 = Some f2 -> f2 <= 96 + zlen padB ->
  no_early (o_req1 o) (skipn (Z.to_nat f1) (ya ++ padA)) ->
  no_early (fst (rc4_xor (rc4_init (o_keyB o)) vc)) (skipn (Z.to_nat f2) (yb ++ padB)) ->
  let sel := sel_policy pol polk provide in
  let r := honest ya padA provide lenC ia o yb padB lenD pol polk o known chunksAB chunksBA in
  known = o_req2 o -> sel_valid sel provide = true ->
  p_err (u_a r) = 0 /\ p_err (u_b r) = 0 /\ p_sel (u_a r) = sel /\ p_sel (u_b r) = sel /\
  sel_valid sel provide = true /\ p_ia (u_b r) = ia /\
  (forall d, recv (u_b r) (send (u_a r) d) = d) /\ (forall d, recv (u_a r) (send (u_b r) d) = d).
Proof. intros. eapply honest_run_agrees; eassumption. Qed.
Print Assumptions C12_same_key_both_complete_and_agree.

(* ... and if the responder's choice is not a single offered method, the handshake fails on both sides *)
Theorem C12_invalid_selection_fails_on_both_sides :
  forall ya padA yb padB ia provide lenC lenD pol polk o known chunksAB chunksBA f1 f2,
  zlen ya = 96 -> zlen yb = 96 -> zlen (o_req1 o) = 20 -> zlen (o_req2 o) = 20 -> zlen (o_req3 o) = 20 ->
  0 < provide < 4294967296 -> 0 <= lenC < 65536 -> zlen ia < 65536 ->
  zlen padA <= 512 ->
  first_read chunksAB 0 = Some f1 -> f1 <= 96 + zlen padA ->
  first_read chunksBA 0 = Some f2 -> f2 <= 96 + zlen padB ->
  no_early (o_req1 o) (skipn (Z.to_nat f1) (ya ++ padA)) ->
  no_early (fst (rc4_xor (rc4_init (o_keyB o)) vc)) (skipn (Z.to_nat f2) (yb ++ padB)) ->
  let sel := sel_policy pol polk provide in
  let r := honest ya padA provide lenC ia o yb padB lenD pol polk o known chunksAB chunksBA in
  known = o_req2 o -> sel_valid sel provide = false ->
  p_err (u_a r) <> 0 /\ p_err (u_b r) <> 0.
Proof. intros. eapply honest_run_invalid_selection; eassumption. Qed.
Print Assumptions C12_invalid_selection_fails_on_both_sides.

(* a wrong key never completes the handshake, on either side *)
Theorem C12_wrong_key_never_completes :
  forall ya padA yb padB ia provide lenC lenD pol polk o known chunksAB chunksBA f1 f2,
  zlen ya = 96 -> zlen yb = 96 -> zlen (o_req1 o) = 20 -> zlen (o_req2 o) = 20 -> zlen (o_req3 o) = 20 ->
  0 < provide < 4294967296 -> 0 <= lenC < 65536 -> zlen ia < 65536 ->
  zlen padA <= 512 ->
  first_read chunksAB 0 = Some f1 -> f1 <= 96 + zlen padA ->
  first_read chunksBA 0 = Some f2 -> f2 <= 96 + zlen padB ->
  no_early (o_req1 o) (skipn (Z.to_nat f1) (ya ++ padA)) ->
  no_early (fst (rc4_xor (rc4_init (o_keyB o)) vc)) (skipn (Z.to_nat f2) (yb ++ padB)) ->
  let r := honest ya padA provide lenC ia o yb padB lenD pol polk o known chunksAB chunksBA in
  known <> o_req2 o ->
  p_err (u_a r) <> 0 /\ p_err (u_b r) <> 0.
Proof. intros. eapply wrong_key_never_completes; eassumption. Qed.
Print Assumptions C12_wrong_key_never_completes.

(* forced encryption.  Outgoing: only RC4 is offered, and whatever bytes the peer sends and however they are
   fragmented, a completed handshake leaves both stream directions RC4; no clear-text retry is made.
   Incoming: whatever bytes the peer sends, a completed handshake selected RC4; a plain BitTorrent handshake
   is refused. *)
Theorem C12_forced_outgoing_never_plain : forall ya padA lenC ia o incoming chunks,
  let a := initiator ya padA (dial_provide true) lenC ia o incoming chunks in
  p_err a = 0 -> p_sel a <> 1 /\ (exists c, p_enc a = CRc4 c) /\ (exists c, p_dec a = CRc4 c).
Proof. exact initiator_forced. Qed.
Print Assumptions C12_forced_outgoing_never_plain.

Theorem C12_forced_outgoing_no_clear_retry : forall e s plain_ok, snd (dial_policy true true e s plain_ok) = false.
Proof. exact dial_forced_no_clear. Qed.
Print Assumptions C12_forced_outgoing_no_clear_retry.

Theorem C12_forced_incoming_never_plain : forall yb padB lenD k o known incoming chunks,
  let b := responder yb padB lenD 1 k o known incoming chunks in
  p_err b = 0 -> p_sel b = 2 /\ (exists c, p_enc b = CRc4 c) /\ (exists c, p_dec b = CRc4 c).
Proof. exact responder_forced. Qed.
Print Assumptions C12_forced_incoming_never_plain.

Theorem C12_forced_accept_policy : forall has_skey plain e s,
  accept_policy true has_skey plain e s = 0 \/ accept_policy true has_skey plain e s = 2.
Proof. exact accept_forced. Qed.
Print Assumptions C12_forced_accept_policy.

(* the initiator never accepts a method it did not offer, whatever the peer sends *)
Theorem C12_initiator_accepts_only_offered : forall ya padA provide lenC ia o incoming chunks,
  let a := initiator ya padA provide lenC ia o incoming chunks in
  p_err a = 0 -> sel_valid (p_sel a) provide = true.
Proof. intros ya padA provide lenC ia o incoming chunks a H. apply (initiator_ok _ _ _ _ _ _ _ _ H). Qed.
Print Assumptions C12_initiator_accepts_only_offered.

(* both ends of the Diffie-Hellman exchange compute the same secret (the SHA-1 derivations from it are oracles) *)
Theorem C12_dh_shared_secret : forall g xa xb p, 0 < p -> 0 <= xa -> 0 <= xb ->
  ((g ^ xb mod p) ^ xa) mod p = ((g ^ xa mod p) ^ xb) mod p.
Proof. exact dh_shared_secret. Qed.
Print Assumptions C12_dh_shared_secret.
