(* C02 — piece/file geometry.  Property theorems only. *)
From RainV Require Import Lib Geometry SectionIO BlocksProofs PiecesProofs SectionIOProofs RoundtripProofs.

(* For every well-formed info (what NewInfo accepts, C06) NewPieces terminates without a panic
   within the stated fuel, returns exactly n pieces, their sections in order chain through the
   concatenation of the files from byte 0 to byte L, and every piece has length PL except a
   possibly shorter last one. *)
Theorem C02_pieces_cover_and_lengths : forall files PL n L, wf_info files PL n L ->
  exists ps, new_pieces files PL L n = Ok ps /\ length ps = n /\
    chain_ok files 0 (flat_map psecs ps) = Some L /\
    piece_lens_ok PL L 0 (Z.of_nat n) ps = true.
Proof.
  intros files PL n L WF. destruct (new_pieces_ok files PL n L WF) as (ps & H1 & H2 & H3 & H4 & _).
  exists ps. auto.
Qed.
Print Assumptions C02_pieces_cover_and_lengths.

(* meaning of the chain: each byte of the concatenation is in some section ... *)
Theorem C02_chain_covers : forall fs ss a b, chain_ok fs a ss = Some b ->
  a <= b /\ forall x, a <= x < b -> exists s, In s ss /\ abs_start fs s <= x < abs_start fs s + slen s.
Proof. exact chain_ok_cover. Qed.
Print Assumptions C02_chain_covers.

(* ... and all sections lie inside [a, b) (with adjacency this is "once and only once") *)
Theorem C02_chain_inside : forall fs ss a b, chain_ok fs a ss = Some b ->
  forall s, In s ss -> a <= abs_start fs s /\ abs_start fs s + slen s <= b.
Proof. exact chain_ok_inside. Qed.
Print Assumptions C02_chain_inside.

(* The blocks of a piece are ordered, disjoint, each 0 < len <= bs, and their union is exactly
   the non-padding byte positions of the piece: for all section lists and all block sizes. *)
Theorem C02_blocks_tile : forall bs l, 0 < bs -> wf_secs l -> l <> [] ->
  exists bl, calc_blocks true bs l = Ok bl /\
    (forall x, covered bl x <-> nonpad_at l 0 x) /\
    ordered 0 bl (fold_left (fun a s => a + slen s) l 0) /\
    sized bs bl.
Proof. exact blocks_tile. Qed.
Print Assumptions C02_blocks_tile.

Theorem C02_blocks_tile_refuted_on_pinned_code :
  exists bs l bl, 0 < bs /\ wf_secs l /\ calc_blocks false bs l = Ok bl /\
    ~ (forall x, covered bl x <-> nonpad_at l 0 x).
Proof. exact blocks_tile_refuted. Qed.
Print Assumptions C02_blocks_tile_refuted_on_pinned_code.

(* Write-then-read round trip, for every accepted info, every piece, every storage of the right
   file sizes, every full-length buffer and every in-range (off, k): the bytes read back are
   buf[off, off+k) with padding positions zero; files that are not non-padding files of the
   piece (in particular all padding files) are left untouched. *)
Theorem C02_write_read_roundtrip : forall files PL n L st,
  wf_info files PL n L -> storage_matches st files ->
  exists ps, new_pieces files PL L n = Ok ps /\
    forall p buf off k, In p ps -> zlen buf = plength p -> 0 < plength p ->
      0 <= off -> 0 <= k -> off + k <= plength p ->
      exists st', write_secs st (psecs p) buf = Ok st' /\
        read_at st' (psecs p) off k = Ok (slice (mask (psecs p) buf) off k, 0) /\
        (forall i, ~ In i (nonpad_files (psecs p)) -> file_of st' i = file_of st i).
Proof.
  intros files PL n L st WF Hst. destruct (pieces_roundtrip files PL n L st WF Hst) as (ps & E & H).
  exists ps. split; [exact E|]. intros p buf off k Hin Hb _. apply H; assumption.
Qed.
Print Assumptions C02_write_read_roundtrip.

(* the exact domain on which ReadAt panics: an offset beyond the end of the piece *)
Theorem C02_read_beyond_piece_is_the_only_panic : forall st p off, secs_wf st p ->
  sum_slen p < off -> skip_loop p 0 off = None.
Proof.
  intros st p off H Hlt. apply (read_at_beyond_crashes p 0 off (secs_wf_nonneg st p H)). lia.
Qed.
Print Assumptions C02_read_beyond_piece_is_the_only_panic.

(* createJobs (web-seed HTTP ranges): for every piece list produced by NewPieces (sections chaining
   through the files) and every piece range [b, e), the jobs in order enumerate exactly the byte
   addresses (file, padding flag, offset) of the sections of those pieces, each once and in order,
   and no job is empty (zero-length files are not requested) *)
From RainV Require Import JobsProofs.
Theorem C02_jobs_cover : forall fs ps L b e, chain_ok fs 0 (flat_map psecs ps) = Some L ->
  let secs := flat_map psecs (firstn (e - b) (skipn b ps)) in
  flat_map job_addrs (create_jobs Nat.eqb ps b e) = flat_map sec_addrs secs /\
  Forall (fun j => 0 < jlen j) (create_jobs Nat.eqb ps b e).
Proof. exact jobs_cover_pieces. Qed.
Print Assumptions C02_jobs_cover.
