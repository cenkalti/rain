(* Model of internal/bencodedepth Check: the scan that bounds the nesting of bencoded input before
   the recursive decoder sees it.  Indexes are Go ints (the string length is accumulated with
   wrap-around), bytes are Z; index out of range is [DCrash], running out of fuel is [DFuel]. *)
From RainV Require Import Lib.

Inductive dres := DOk | DTooDeep | DCrash | DFuel.
Definition wrap64 (x : Z) : Z := (x + 9223372036854775808) mod 18446744073709551616 - 9223372036854775808.
Definition byte_at (b : list Z) (i : Z) : Z := nth (Z.to_nat i) b 0.
Definition is_digit (c : Z) : bool := (48 <=? c) && (c <=? 57).
Definition max_depth : Z := 64.

(* for i < len(b) && b[i] != 'e' { i++ } *)
Fixpoint skip_int (fuel : nat) (b : list Z) (i : Z) : Z :=
  match fuel with
  | O => i
  | S f => if (i <? zlen b) && negb (byte_at b i =? 101) then skip_int f b (i + 1) else i
  end.

(* the digit loop: None = "return nil" from inside the loop (length already larger than the input) *)
Fixpoint digits (fuel : nat) (b : list Z) (i n : Z) : option (Z * Z) :=
  match fuel with
  | O => Some (i, n)
  | S f => if (i <? zlen b) && is_digit (byte_at b i) then
             if n >? zlen b then None
             else digits f b (i + 1) (wrap64 (n * 10 + (byte_at b i - 48)))
           else Some (i, n)
  end.

Fixpoint check_go (fuel : nat) (b : list Z) (i depth : Z) : dres :=
  match fuel with
  | O => DFuel
  | S f =>
      if i <? 0 then DCrash else
      if negb (i <? zlen b) then DOk else
      let c := byte_at b i in
      let cont (i' depth' : Z) := if depth' <=? 0 then DOk else check_go f b i' depth' in
      if (c =? 108) || (c =? 100) then (if depth + 1 >? max_depth then DTooDeep else cont (i + 1) (depth + 1))
      else if c =? 101 then cont (i + 1) (depth - 1)
      else if c =? 105 then cont (skip_int (length b) b i + 1) depth
      else if is_digit c then
        match digits (S (length b)) b i 0 with
        | None => DOk
        | Some (i', n) =>
            if (i' >=? zlen b) || negb (byte_at b i' =? 58) || (n >? zlen b - i' - 1) then DOk
            else cont (i' + 1 + n) depth
        end
      else DOk
  end.
Definition depth_check (b : list Z) : dres := check_go (S (length b)) b 0 0.

Lemma wrap64_small x : -9223372036854775808 <= x < 9223372036854775808 -> wrap64 x = x.
Proof. intros H. unfold wrap64. rewrite Z.mod_small by lia. lia. Qed.

Lemma skip_int_ge : forall fuel b i, i <= skip_int fuel b i.
Proof.
  induction fuel as [|f IH]; intros b i; cbn [skip_int]; [lia|].
  destruct ((i <? zlen b) && negb (byte_at b i =? 101)); [|lia].
  pose proof (IH b (i + 1)). lia.
Qed.

(* the guard keeps the accumulated length non-negative and the index moving forward: past the
   first digit when there is one *)
Lemma digits_spec : forall fuel b i n i' n', zlen b < 100000000000000000 -> 0 <= n ->
  digits fuel b i n = Some (i', n') ->
  i <= i' /\ 0 <= n' /\
  ((0 < fuel)%nat -> (i <? zlen b) && is_digit (byte_at b i) = true -> i + 1 <= i').
Proof.
  induction fuel as [|f IH]; intros b i n i' n' Hl Hn H; cbn [digits] in H; [inversion H; subst; lia|].
  destruct ((i <? zlen b) && is_digit (byte_at b i)) eqn:E; [|inversion H; subst; lia].
  destruct (n >? zlen b) eqn:Eg; [discriminate|].
  apply andb_prop in E as [E1 E2]. unfold is_digit in E2.
  rewrite wrap64_small in H by lia. apply IH in H; lia.
Qed.

(* Check terminates within len+1 iterations, never indexes outside the input, and so returns either
   "fine" or "too deep" for every byte string (below 10^17 bytes) *)
Theorem check_total : forall b, zlen b < 100000000000000000 ->
  depth_check b = DOk \/ depth_check b = DTooDeep.
Proof.
  intros b Hl. unfold depth_check.
  assert (G : forall fuel i depth, 0 <= i -> (Z.of_nat fuel >= Z.max 1 (zlen b - i + 1)) ->
              check_go fuel b i depth = DOk \/ check_go fuel b i depth = DTooDeep).
  { induction fuel as [|f IH]; intros i depth Hi Hf.
    - lia.
    - cbn [check_go]. destruct (i <? 0) eqn:E0; [lia|]. destruct (i <? zlen b) eqn:E1; cbn [negb]; [|left; reflexivity].
      assert (Cont : forall i' d', i + 1 <= i' -> (if d' <=? 0 then DOk else check_go f b i' d') = DOk \/ (if d' <=? 0 then DOk else check_go f b i' d') = DTooDeep).
      { intros i' d' Hi'. destruct (d' <=? 0); [left; reflexivity|]. apply IH; lia. }
      destruct ((byte_at b i =? 108) || (byte_at b i =? 100)).
      + destruct (depth + 1 >? max_depth); [right; reflexivity|]. apply Cont. lia.
      + destruct (byte_at b i =? 101); [apply Cont; lia|].
        destruct (byte_at b i =? 105); [apply Cont; pose proof (skip_int_ge (length b) b i); lia|].
        destruct (is_digit (byte_at b i)) eqn:Ed; [|left; reflexivity].
        destruct (digits (S (length b)) b i 0) as [[i' n]|] eqn:Eg; [|left; reflexivity].
        destruct (digits_spec _ _ _ 0 _ _ Hl ltac:(lia) Eg) as (_ & P2 & P1).
        specialize (P1 ltac:(lia) ltac:(rewrite E1, Ed; reflexivity)).
        destruct ((i' >=? zlen b) || negb (byte_at b i' =? 58) || (n >? zlen b - i' - 1)); [left; reflexivity|].
        apply Cont. lia. }
  apply G; [lia|]. unfold zlen. lia.
Qed.

(* kind 603: in = the bytes; out = [0 fine | 1 too deep | -777 crash | -555 out of fuel] *)
Definition run_depth (inp : list Z) : list Z :=
  match depth_check inp with DOk => [0] | DTooDeep => [1] | DCrash => [-777] | DFuel => [-555] end.
