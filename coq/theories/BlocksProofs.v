(* Proofs about calculateBlocks: the blocks of a piece tile exactly its non-padding bytes. *)
From RainV Require Import Lib Geometry.

Fixpoint nonpad_at (l : list section) (off x : Z) : Prop :=
  match l with
  | [] => False
  | s :: r => (spad s = false /\ off <= x < off + slen s) \/ nonpad_at r (off + slen s) x
  end.

Definition covered (bl : list blk) (x : Z) : Prop :=
  exists b, In b bl /\ bbeg b <= x < bbeg b + blen b.

(* blocks are in increasing order, disjoint, all inside [lo, hi) *)
Fixpoint ordered (lo : Z) (bl : list blk) (hi : Z) : Prop :=
  match bl with
  | [] => lo <= hi
  | b :: r => lo <= bbeg b /\ 0 < blen b /\ ordered (bbeg b + blen b) r hi
  end.

Definition sized (bs : Z) (bl : list blk) : Prop := forall b, In b bl -> 0 < blen b <= bs.

Lemma covered_app a b x : covered (a ++ b) x <-> covered a x \/ covered b x.
Proof. unfold covered. rewrite <- !Exists_exists. apply Exists_app. Qed.

Lemma covered_nil x : ~ covered [] x.
Proof. intros (k & [] & _). Qed.

Lemma covered_one b x : covered [b] x <-> bbeg b <= x < bbeg b + blen b.
Proof.
  unfold covered; split.
  - intros (k & [<-|[]] & Hr); auto.
  - intros H; exists b; split; [left; reflexivity|auto].
Qed.

Lemma ordered_lo_weaken lo lo' bl hi : ordered lo bl hi -> lo' <= lo -> ordered lo' bl hi.
Proof. destruct bl as [|x r]; cbn; intros H Hle; [lia|]. destruct H as (H1 & H2 & H3); repeat split; auto; lia. Qed.

Lemma ordered_app lo a b hi mid :
  ordered lo a mid -> ordered mid b hi -> ordered lo (a ++ b) hi.
Proof.
  revert lo; induction a as [|x a IH]; cbn; intros lo Ha Hb.
  - eapply ordered_lo_weaken; eauto.
  - destruct Ha as (H1 & H2 & H3). repeat split; auto.
Qed.

Lemma ordered_hi_weaken lo bl hi hi' : ordered lo bl hi -> hi <= hi' -> ordered lo bl hi'.
Proof.
  revert lo; induction bl as [|x r IH]; cbn; intros lo H Hle; [lia|].
  destruct H as (H1 & H2 & H3); repeat split; eauto.
Qed.

Lemma ordered_lo_hi lo bl hi : ordered lo bl hi -> lo <= hi.
Proof.
  revert lo; induction bl as [|x r IH]; cbn; intros lo H; [lia|].
  destruct H as (H1 & H2 & H3). apply IH in H3. lia.
Qed.

Lemma ordered_in : forall bl lo hi b, ordered lo bl hi -> In b bl -> lo <= bbeg b /\ 0 < blen b /\ bbeg b + blen b <= hi.
Proof.
  induction bl as [|x r IH]; intros lo hi b Ho Hin; [destruct Hin|]. destruct Ho as (H1 & H2 & H3).
  destruct Hin as [<-|Hin]; [pose proof (ordered_lo_hi _ _ _ H3); lia|].
  destruct (IH _ _ _ H3 Hin). lia.
Qed.

(* two blocks of the list are the same block or do not overlap *)
Lemma ordered_pair : forall bl lo hi b1 b2, ordered lo bl hi -> In b1 bl -> In b2 bl ->
  b1 = b2 \/ bbeg b1 + blen b1 <= bbeg b2 \/ bbeg b2 + blen b2 <= bbeg b1.
Proof.
  induction bl as [|x r IH]; intros lo hi b1 b2 Ho H1 H2; [destruct H1|]. destruct Ho as (A & B & C).
  destruct H1 as [<-|H1], H2 as [<-|H2].
  - left. reflexivity.
  - right. left. destruct (ordered_in _ _ _ _ C H2). lia.
  - right. right. destruct (ordered_in _ _ _ _ C H1). lia.
  - eapply IH; eauto.
Qed.

Lemma ordered_begins_nodup : forall bl lo hi, ordered lo bl hi -> NoDup (map bbeg bl).
Proof.
  induction bl as [|b r IH]; intros lo hi Ho; cbn; [constructor|]. destruct Ho as (A & B & C).
  constructor; [|eapply IH; eauto]. intros Hc. apply in_map_iff in Hc as (b' & E & Hin).
  destruct (ordered_in _ _ _ _ C Hin). lia.
Qed.

Lemma covered_dec bl x : covered bl x \/ ~ covered bl x.
Proof.
  unfold covered. rewrite <- Exists_exists.
  destruct (Exists_dec (fun b => bbeg b <= x < bbeg b + blen b) bl); auto.
  intros b. destruct (Z_le_dec (bbeg b) x), (Z_lt_dec x (bbeg b + blen b)); (left; lia) || (right; lia).
Qed.

Lemma nonpad_at_app l1 l2 off x :
  nonpad_at (l1 ++ l2) off x <->
  nonpad_at l1 off x \/ nonpad_at l2 (fold_left (fun a s => a + slen s) l1 off) x.
Proof.
  revert off; induction l1 as [|s r IH]; cbn; intros off; [tauto|].
  rewrite IH. symmetry. apply or_assoc.
Qed.

(* The loop state describes the bytes [P] seen so far: finished blocks [out s] in order below the
   block being filled, [cur s], which ends at or before the piece offset. *)
Record BPre (bs : Z) (P : Z -> Prop) (s : bst) : Prop := {
  b_cov : forall y, P y <-> covered (out s) y \/ bbeg (cur s) <= y < bbeg (cur s) + blen (cur s);
  b_ord : ordered 0 (out s) (bbeg (cur s));
  b_siz : sized bs (out s);
  b_len : 0 <= blen (cur s) <= bs;
  b_end : bbeg (cur s) + blen (cur s) <= poff s
}.

(* Between iterations the current block also ends exactly at the piece offset and is not full. *)
Definition BlkInv bs P s := BPre bs P s /\ bbeg (cur s) + blen (cur s) = poff s /\ blen (cur s) < bs.

Lemma BlkInv_ext bs P Q s : (forall y, P y <-> Q y) -> BlkInv bs P s -> BlkInv bs Q s.
Proof.
  intros E ([A B C D F] & H). split; [|exact H]. constructor; auto.
  intros y. rewrite <- E. apply A.
Qed.

Lemma poff_next_block s : poff (next_block true s) = poff s.
Proof. unfold next_block; destruct (blen (cur s) =? 0); reflexivity. Qed.

Lemma cur_next_block s : cur (next_block true s) = {| bbeg := poff s; blen := 0 |}.
Proof. unfold next_block; destruct (blen (cur s) =? 0); reflexivity. Qed.

(* nextBlock closes the current block, full or not, and opens an empty one at the piece offset;
   this serves a full block, a padding section and the end of the piece alike. *)
Lemma next_block_inv bs P s : 0 < bs -> BPre bs P s -> BlkInv bs P (next_block true s).
Proof.
  intros Hbs [A B C D F]. split; [|rewrite cur_next_block, poff_next_block; cbn; lia].
  unfold next_block. destruct (Z.eqb_spec (blen (cur s)) 0) as [E|E].
  - constructor; cbn; auto; try lia.
    + intros y. rewrite A. apply or_iff_compat_l. lia.
    + eapply ordered_hi_weaken; eauto. lia.
  - constructor; cbn; try lia.
    + intros y. rewrite A, covered_app, covered_one, or_assoc. apply or_iff_compat_l. lia.
    + eapply ordered_app; [exact B|]. cbn. lia.
    + intros b Hin. apply in_app_or in Hin as [Hin|[<-|[]]]; [auto|lia].
Qed.

(* one iteration of the loop in [consume]: [n] more bytes into the current block, closed if full *)
Definition eat_block bs (s : bst) (n : Z) : bst :=
  let s1 := {| out := out s; cur := {| bbeg := bbeg (cur s); blen := blen (cur s) + n |};
               poff := poff s + n |} in
  if bs - blen (cur s1) =? 0 then next_block true s1 else s1.

Lemma eat_block_inv bs P s n : 0 < bs -> BlkInv bs P s -> 0 <= n <= bs - blen (cur s) ->
  BlkInv bs (fun y => P y \/ poff s <= y < poff s + n) (eat_block bs s n) /\
  poff (eat_block bs s n) = poff s + n /\
  (n = bs - blen (cur s) -> blen (cur (eat_block bs s n)) = 0).
Proof.
  intros Hbs ([A B C D F] & G & H) Hn. unfold eat_block.
  set (s1 := {| out := out s; cur := _; poff := _ |}).
  assert (P1 : BPre bs (fun y => P y \/ poff s <= y < poff s + n) s1).
  { constructor; cbn; auto; try lia. intros y. rewrite A, or_assoc. apply or_iff_compat_l. lia. }
  destruct (Z.eqb_spec (bs - blen (cur s1)) 0) as [E|E]; cbn in E.
  - rewrite poff_next_block, cur_next_block. split; [apply next_block_inv; assumption|]. cbn. auto.
  - split; [split; [exact P1|cbn; lia]|]. cbn. lia.
Qed.

(* Fuel is counted in blocks: every iteration but the last fills one. *)
Lemma consume_inv bs : 0 < bs -> forall fuel s left P,
  BlkInv bs P s -> 0 <= left -> left + blen (cur s) < Z.of_nat fuel * bs ->
  exists s', consume true bs fuel s left = Some s' /\
    BlkInv bs (fun y => P y \/ poff s <= y < poff s + left) s' /\ poff s' = poff s + left.
Proof.
  intros Hbs. induction fuel as [|f IH]; intros s left P HI Hl Hf; pose proof HI as ([_ _ _ Hlen _] & _ & Hlt).
  - lia.
  - cbn [consume]. fold (eat_block bs s (Z.min left (bs - blen (cur s)))).
    set (n := Z.min left (bs - blen (cur s))).
    destruct (eat_block_inv bs P s n Hbs HI) as (I2 & Hp & Hz); [lia|].
    destruct (Z.eqb_spec (left - n) 0) as [El|El].
    + eexists. split; [reflexivity|]. replace left with n by lia. auto.
    + destruct (IH _ (left - n) _ I2) as (s' & E & I3 & Hp'); [lia| |].
      * rewrite Hz by lia. rewrite Nat2Z.inj_succ, Z.mul_succ_l in Hf. lia.
      * exists s'. split; [exact E|]. split; [|lia].
        eapply BlkInv_ext; [|exact I3]. intros y. cbn. rewrite Hp, or_assoc. apply or_iff_compat_l. lia.
Qed.

Definition wf_secs (l : list section) : Prop := Forall (fun s => 0 <= slen s) l.

Lemma secs_loop_inv bs : 0 < bs -> forall l s P, wf_secs l -> BlkInv bs P s ->
  exists s', secs_loop true bs l s = Some s' /\
    BlkInv bs (fun y => P y \/ nonpad_at l (poff s) y) s' /\
    poff s' = fold_left (fun a x => a + slen x) l (poff s).
Proof.
  intros Hbs. induction l as [|x r IH]; intros s P Hwf HI.
  - exists s. split; [reflexivity|]. split; [|reflexivity].
    eapply BlkInv_ext; [|exact HI]. cbn. tauto.
  - inversion Hwf as [|? ? Hx Hr]; subst. cbn [secs_loop fold_left nonpad_at].
    destruct (spad x) eqn:Hp.
    + destruct HI as ([A B C D F] & G & H).
      destruct (IH (next_block true {| out := out s; cur := cur s; poff := poff s + slen x |}) P Hr)
        as (s' & E & I' & Hp'); [apply next_block_inv; [exact Hbs|constructor; cbn; auto; lia]|].
      rewrite poff_next_block in I', Hp'. exists s'. split; [exact E|]. split; [|exact Hp'].
      eapply BlkInv_ext; [|exact I']. intros y. cbn. apply or_iff_compat_l.
      split; [auto|]. intros [[H' _]|H']; [discriminate|exact H'].
    + destruct (consume_inv bs Hbs (fuel_for bs (slen x)) s (slen x) P HI Hx) as (s1 & E1 & I1 & Hp1).
      * destruct HI as ([_ _ _ Hlen _] & _ & Hlt). unfold fuel_for.
        rewrite Nat2Z.inj_add, Z2Nat.id by (apply Z.div_pos; lia).
        pose proof (Z.mul_succ_div_gt (slen x) bs Hbs). lia.
      * rewrite E1. destruct (IH s1 _ Hr I1) as (s' & E & I' & Hp'). rewrite Hp1 in I', Hp'.
        exists s'. split; [exact E|]. split; [|exact Hp'].
        eapply BlkInv_ext; [|exact I']. intros y. cbn. rewrite or_assoc.
        apply or_iff_compat_l, or_iff_compat_r. split; [auto|tauto].
Qed.

Theorem blocks_tile bs l : 0 < bs -> wf_secs l -> l <> [] ->
  exists bl, calc_blocks true bs l = Ok bl /\
    (forall x, covered bl x <-> nonpad_at l 0 x) /\
    ordered 0 bl (fold_left (fun a s => a + slen s) l 0) /\
    sized bs bl.
Proof.
  intros Hbs Hwf Hne. unfold calc_blocks. destruct l as [|l0 lr] eqn:El; [congruence|]. rewrite <- El in *.
  set (s0 := {| out := []; cur := {| bbeg := 0; blen := 0 |}; poff := 0 |}).
  assert (I0 : BlkInv bs (fun _ => False) s0).
  { split; [constructor|]; cbn; try lia.
    - intros y. split; [intros []|]. intros [H|H]; [exact (covered_nil y H)|lia].
    - intros b []. }
  destruct (secs_loop_inv bs Hbs l s0 _ Hwf I0) as (s & E & I & Hp). rewrite E.
  eexists. split; [reflexivity|].
  destruct (next_block_inv bs _ s Hbs (proj1 I)) as ([A B C _ _] & _).
  rewrite cur_next_block in A, B. cbn [bbeg blen] in A, B. change (poff s0) with 0 in A, Hp.
  split; [|rewrite <- Hp; auto]. intros y. split; intros H.
  - destruct (proj2 (A y) (or_introl H)) as [[]|H']. exact H'.
  - destruct (proj1 (A y) (or_intror H)) as [H'|H']; [exact H'|lia].
Qed.

(* a section of length [n], padding or not, for the witnesses *)
Definition S_ n p := {| sfile := O; soff := 0; slen := n; spad := p |}.

(* the pinned tree violates it: one full block, a padding section, then a short section (also the replay) *)
Theorem blocks_tile_refuted :
  exists bs l bl, 0 < bs /\ wf_secs l /\ calc_blocks false bs l = Ok bl /\
    ~ (forall x, covered bl x <-> nonpad_at l 0 x).
Proof.
  exists 16384, [S_ 16384 false; S_ 1000 true; S_ 5000 false].
  eexists. split; [lia|]. split; [repeat constructor; cbn; lia|]. split; [vm_compute; reflexivity|].
  intros H. specialize (H 16384). destruct H as [H _].
  assert (Hc : covered [{| bbeg := 0; blen := 16384 |}; {| bbeg := 16384; blen := 5000 |}] 16384).
  { exists {| bbeg := 16384; blen := 5000 |}. split; [right; left; reflexivity|cbn; lia]. }
  apply H in Hc. cbn in Hc. intuition lia.
Qed.

Example blocks_tile_nonvacuous : wf_secs [S_ 0 false; S_ 20 false; S_ 3 true; S_ 9 false].
Proof. repeat constructor; cbn; lia. Qed.

(* the blocks calculateBlocks produces have distinct begins (hypothesis [blocks_nodup] of LeechProofs.init_ok) *)
Lemma calc_blocks_nodup bs l bl : 0 < bs -> wf_secs l -> l <> [] -> calc_blocks true bs l = Ok bl -> NoDup (map bbeg bl).
Proof.
  intros Hbs Hwf Hne E. destruct (blocks_tile bs l Hbs Hwf Hne) as (bl' & E' & _ & Ho & _).
  rewrite E in E'. inversion E'; subst. eapply ordered_begins_nodup; eauto.
Qed.
