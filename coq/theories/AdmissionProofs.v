From RainV Require Import Lib Admission.

(* what the admission tests establish of a served request, read off [serve]; the length is only known
   to be non-zero, because the model computes in Z where the wire fields are uint32 *)
Lemma served_spec PL total np done fast idx b len cc af :
  serve PL total np done fast idx b len cc af = DPiece ->
  idx < np /\ done idx = true /\ len <> 0 /\ len <= 16384 /\ b + len <= piece_len PL total np idx /\
  (cc = false \/ (fast = true /\ af = true)).
Proof.
  unfold serve, valid_request. intros H.
  destruct (len >? 16384) eqn:E1; [discriminate|]. destruct (idx >=? np) eqn:E2; [discriminate|].
  destruct (len =? 0) eqn:E3; cbn [negb andb] in H; [discriminate|].
  destruct (b + len <=? piece_len PL total np idx) eqn:E4; cbn [negb] in H; [|discriminate].
  destruct (done idx) eqn:E5; cbn [negb] in H; [|discriminate].
  destruct cc; [destruct fast; [destruct af; [|discriminate]|discriminate]|]; repeat split; auto; lia.
Qed.

(* data is sent only for in-bounds, non-empty, at most 16 KiB requests of pieces the client has;
   while choking, only to fast-extension peers and only for pieces granted as allowed-fast *)
Theorem served_only_if PL total np done fast idx b len cc af :
  serve PL total np done fast idx b len cc af = DPiece ->
  idx < np /\ done idx = true /\ 0 < len <= 16384 /\ b + len <= piece_len PL total np idx /\
  (cc = false \/ (fast = true /\ af = true)) \/ len < 0.
Proof.
  intros H. destruct (served_spec _ _ _ _ _ _ _ _ _ _ H) as (A & B & C & D & E & F).
  destruct (Z_lt_le_dec len 0) as [Hn|Hn]; [right; exact Hn|left]. repeat split; auto; lia.
Qed.

Lemma valid_request_spec begin len plen : 0 <= len ->
  valid_request begin len plen = true -> begin < plen /\ begin + len <= plen /\ len <> 0.
Proof. unfold valid_request. intros. lia. Qed.

(* no 32-bit request triple makes the bounds check wrap: begin + length is computed exactly *)
Theorem no_wraparound begin len plen : 0 <= begin < two32a -> 0 <= len < two32a -> 0 <= plen < two32a ->
  valid_request begin len plen = true -> begin < plen /\ begin + len <= plen /\ len <> 0.
Proof. intros _ [Hl _] _. apply valid_request_spec, Hl. Qed.

Example serve_example : serve 16384 40000 3 (fun _ => true) true 2 7000 200 true true = DPiece.
Proof. reflexivity. Qed.
