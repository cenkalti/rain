(* C14 on the registry model: for every history of add (file / magnet, given ids, failing adds),
   remove, start, stop, add-tracker, restart and compact, torrent numbers (ids) are unique, no two
   live torrents share a port, and every port of the configured range is either free or owned by
   exactly one torrent. *)
From RainV Require Import Lib Registry.
From Coq Require Import ZifyBool.

Definition ports (s : reg) : list Z := map r_port (g_tors s).
Definition in_range (s : reg) (p : Z) : Prop := 0 <= p < g_nports s.

Record RInv (s : reg) : Prop := {
  ri_free_nodup : NoDup (g_free s);
  ri_ports_nodup : NoDup (ports s);
  ri_free_range : forall p, In p (g_free s) -> in_range s p /\ ~ In p (ports s);
  ri_cover : forall p, in_range s p -> In p (g_free s) \/ In p (ports s);
  ri_port_range : forall p, In p (ports s) -> in_range s p;
  ri_nums : NoDup (map r_num (g_tors s));
  ri_next : forall t, In t (g_tors s) -> r_num t < g_next s
}.

(* the integers 0 .. n-1 *)
Lemma in_zrange p n : In p (map Z.of_nat (seq 0 (Z.to_nat n))) <-> 0 <= p < n.
Proof.
  rewrite in_map_iff. split; [intros (k & <- & Hk); apply in_seq in Hk; lia|].
  intros Hp. exists (Z.to_nat p). split; [lia|apply in_seq; lia].
Qed.

Lemma NoDup_zrange n : NoDup (map Z.of_nat (seq 0 (Z.to_nat n))).
Proof.
  generalize (Z.to_nat n) as k, 0%nat. induction k as [|k IH]; intros a; cbn; constructor; [|apply IH].
  rewrite in_map_iff. intros (j & E & Hj). apply in_seq in Hj. lia.
Qed.

Lemma zmemb_true x l : zmemb x l = true <-> In x l.
Proof.
  unfold zmemb. rewrite existsb_exists. split; [intros (y & Hy & E); apply Z.eqb_eq in E; subst; exact Hy|].
  intros H. exists x. split; [exact H|apply Z.eqb_refl].
Qed.
Lemma zremove_in x y l : In y (zremove x l) <-> In y l /\ y <> x.
Proof. unfold zremove. rewrite filter_In. split; intros [A B]; split; auto; lia. Qed.
Lemma zremove_nodup x l : NoDup l -> NoDup (zremove x l).
Proof. apply NoDup_filter. Qed.
Lemma zinsert_in x y l : In y (zinsert x l) <-> y = x \/ In y l.
Proof.
  induction l as [|z r IH]; cbn; [intuition|]. destruct (x <=? z); cbn; [intuition|]. rewrite IH. intuition.
Qed.
Lemma zinsert_nodup x l : NoDup l -> ~ In x l -> NoDup (zinsert x l).
Proof.
  induction l as [|z r IH]; intros Hn Hx; cbn; [constructor; [intros []|constructor]|]. inversion Hn; subst.
  destruct (x <=? z); [constructor; assumption|]. constructor.
  - rewrite zinsert_in. intros [E|E]; [subst; apply Hx; left; reflexivity|contradiction].
  - apply IH; [assumption|]. intros Hc. apply Hx. right. exact Hc.
Qed.

(* the free ports after a load: the ports of the range that no loaded record has *)
Lemma ports_after_load_in n l p : In p (ports_after_load n l) <-> 0 <= p < n /\ ~ In p (map r_port l).
Proof.
  unfold ports_after_load. rewrite filter_In, in_zrange, negb_true_iff, <- not_true_iff_false, existsb_exists, in_map_iff.
  split; intros [Hp Hn]; (split; [exact Hp|]); intros (t & H1 & H2); apply Hn; exists t; split; auto; lia.
Qed.
Lemma ports_after_load_nodup n l : NoDup (ports_after_load n l).
Proof. apply NoDup_filter, NoDup_zrange. Qed.

Lemma rinv_init n : RInv (reg_init n).
Proof.
  constructor; cbn.
  - apply NoDup_zrange.
  - constructor.
  - intros p Hp. apply in_zrange in Hp. split; [exact Hp|intros []].
  - intros p Hp. left. apply in_zrange, Hp.
  - intros p [].
  - constructor.
  - intros t [].
Qed.

Lemma rinv_bad s w : RInv s -> RInv (with_bad_r s w).
Proof. intros [A B C D E F G]. constructor; assumption. Qed.

Lemma rinv_add s magnet cat idsel stopped port : RInv s -> RInv (fst (r_add s magnet cat idsel stopped port)).
Proof.
  intros H. unfold r_add. destruct (g_free s) as [|f0 fr] eqn:Ef; [exact H|].
  destruct ((0 <? idsel) && existsb (fun t => r_given t =? idsel) (g_tors s)); [exact H|].
  destruct (zmemb port (f0 :: fr)) eqn:Em; cbn [negb fst]; [|apply rinv_bad; exact H].
  rewrite <- Ef in *. apply zmemb_true in Em.
  destruct H as [A B C D E F G]. destruct (C port Em) as [Cr Cn].
  constructor; unfold ports, in_range in *; cbn in *; rewrite ?map_app in *; cbn.
  - apply zremove_nodup. exact A.
  - apply NoDup_app_one; assumption.
  - intros p Hp. apply zremove_in in Hp as [Hp Hne]. destruct (C p Hp) as [C1 C2]. split; [exact C1|].
    intros Hi. apply in_app_or in Hi as [Hi|[Hi|[]]]; [contradiction|congruence].
  - intros p Hp. destruct (Z.eq_dec p port) as [->|Hne]; [right; apply in_or_app; right; left; reflexivity|].
    destruct (D p Hp) as [X|X]; [left; apply zremove_in; auto|right; apply in_or_app; left; exact X].
  - intros p Hp. apply in_app_or in Hp as [Hp|[<-|[]]]; auto.
  - apply NoDup_app_one; [exact F|]. intros Hi. apply in_map_iff in Hi as (t & Et & Ht). specialize (G t Ht). lia.
  - intros t Ht. apply in_app_or in Ht as [Ht|[<-|[]]]; [specialize (G t Ht); lia|cbn; lia].
Qed.

(* Remove: nothing happens, or the torrent numbered [t] goes and its port is free again *)
Lemma r_remove_cases s t :
  r_remove s t = s \/
  exists x, In x (g_tors s) /\ r_num x = t /\
    r_remove s t = {| g_tors := filter (fun y => negb (r_num y =? t)) (g_tors s); g_free := zinsert (r_port x) (g_free s);
                      g_next := g_next s; g_nports := g_nports s; g_bad := g_bad s |}.
Proof.
  unfold r_remove. destruct (filter (fun x => r_num x =? t) (g_tors s)) as [|x r] eqn:Ef; [left; reflexivity|right; exists x].
  assert (Hx : In x (filter (fun x => r_num x =? t) (g_tors s))) by (rewrite Ef; left; reflexivity).
  apply filter_In in Hx as [Hx Hn]. repeat split; [exact Hx|lia].
Qed.

(* among records whose ports and numbers are distinct, the ports of all but [x] are all ports but the port of [x] *)
Lemma ports_without l x p : NoDup (map r_port l) -> NoDup (map r_num l) -> In x l ->
  In p (map r_port (filter (fun y => negb (r_num y =? r_num x)) l)) <-> In p (map r_port l) /\ p <> r_port x.
Proof.
  intros Hp Hn Hx. rewrite !in_map_iff. split.
  - intros (y & <- & Hy). apply filter_In in Hy as [Hy Hne]. split; [exists y; auto|]. intros E.
    apply (NoDup_map_inj r_port l y x Hp Hy Hx) in E. subst y. lia.
  - intros [(y & <- & Hy) Hne]. exists y. split; [reflexivity|]. apply filter_In. split; [exact Hy|].
    apply negb_true_iff, Z.eqb_neq. intros E.
    apply (NoDup_map_inj r_num l y x Hn Hy Hx) in E. congruence.
Qed.

Lemma rinv_remove s t : RInv s -> RInv (r_remove s t).
Proof.
  intros H. destruct (r_remove_cases s t) as [->|(x & Hx & <- & ->)]; [exact H|].
  destruct H as [A B C D E F G].
  assert (Hpx : In (r_port x) (ports s)) by (apply in_map; exact Hx).
  assert (P := fun p => ports_without _ x p B F Hx).
  constructor; unfold ports, in_range in *; cbn in *.
  - apply zinsert_nodup; [exact A|]. intros Hc. apply (C _ Hc), Hpx.
  - apply NoDup_map_filter, B.
  - intros p Hp. rewrite P. apply zinsert_in in Hp as [->|Hp]; [split; [apply E, Hpx|tauto]|].
    destruct (C p Hp). tauto.
  - intros p Hp. rewrite P, zinsert_in. destruct (Z.eq_dec p (r_port x)); [auto|]. destruct (D p Hp); auto.
  - intros p Hp. apply E, P, Hp.
  - apply NoDup_map_filter, F.
  - intros y Hy. apply filter_In in Hy as [Hy _]. apply G, Hy.
Qed.

Lemma rinv_upd s t f : (forall x, r_port (f x) = r_port x) -> (forall x, r_num (f x) = r_num x) -> RInv s -> RInv (r_upd s t f).
Proof.
  intros Hfp Hfn [A B C D E F G].
  assert (Hm : forall g : rtor -> Z, (forall x, g (f x) = g x) -> map g (g_tors (r_upd s t f)) = map g (g_tors s)).
  { intros g Hg. cbn. rewrite map_map. apply map_ext. intros x. destruct (r_num x =? t); [apply Hg|reflexivity]. }
  constructor; unfold ports, in_range in *; rewrite ?(Hm _ Hfp), ?(Hm _ Hfn); auto.
  intros y Hy. apply (in_map r_num) in Hy. rewrite (Hm _ Hfn) in Hy. apply in_map_iff in Hy as (x & <- & Hx). apply G, Hx.
Qed.

Lemma rinv_load s l : RInv s -> (forall t, In t l -> In t (g_tors s)) -> NoDup (map r_port l) -> NoDup (map r_num l) ->
  RInv {| g_tors := l; g_free := ports_after_load (g_nports s) l; g_next := g_next s; g_nports := g_nports s; g_bad := g_bad s |}.
Proof.
  intros [A B C D E F G] Hsub Hp Hn.
  constructor; unfold ports, in_range in *; cbn.
  - apply ports_after_load_nodup.
  - exact Hp.
  - intros p Hpp. apply ports_after_load_in, Hpp.
  - intros p Hpp. destruct (in_dec Z.eq_dec p (map r_port l)) as [Hi|Hi]; [right; exact Hi|left; apply ports_after_load_in; auto].
  - intros p Hpp. apply E. apply in_map_iff in Hpp as (t & <- & Ht). apply in_map, Hsub, Ht.
  - exact Hn.
  - intros t Ht. apply G, Hsub, Ht.
Qed.

Lemma rinv_reopen s : RInv s -> RInv (r_reopen s).
Proof. intros H. unfold r_reopen. apply rinv_load; [exact H|auto|apply (ri_ports_nodup _ H)|apply (ri_nums _ H)]. Qed.
Lemma rinv_compact s : RInv s -> RInv (r_compact s).
Proof.
  intros H. unfold r_compact. apply rinv_load; [exact H| | |].
  - intros t Ht. apply filter_In in Ht as [Ht _]. exact Ht.
  - apply NoDup_map_filter. apply (ri_ports_nodup _ H).
  - apply NoDup_map_filter. apply (ri_nums _ H).
Qed.

Inductive rop := RAdd (magnet : bool) (cat idsel : Z) (stopped : bool) (port : Z) | RGarbage | RRemove (t : Z)
               | RStart (t : Z) | RStop (t : Z) | RAddTracker (t : Z) | RReopen | RCompact.
Definition rstep (s : reg) (o : rop) : reg :=
  match o with
  | RAdd m c i st p => fst (r_add s m c i st p)
  | RGarbage => s
  | RRemove t => r_remove s t
  | RStart t => r_upd s t (fun x => set_started x true)
  | RStop t => r_upd s t (fun x => set_started x false)
  | RAddTracker t => r_upd s t add_tr
  | RReopen => r_reopen s
  | RCompact => r_compact s
  end.

Lemma rinv_step s o : RInv s -> RInv (rstep s o).
Proof. intros H. destruct o; cbn; auto using rinv_add, rinv_remove, rinv_upd, rinv_reopen, rinv_compact. Qed.

(* for any size of the port range (an empty one included) *)
Lemma registry_inv_gen n ops : RInv (fold_left rstep ops (reg_init n)).
Proof. apply fold_left_inv; [intros s o; apply rinv_step|apply rinv_init]. Qed.

Theorem registry_inv n ops : 0 <= n -> RInv (fold_left rstep ops (reg_init n)).
Proof. intros _. apply registry_inv_gen. Qed.

(* what restart and compaction keep: the same torrents with the same numbers, ports and flags;
   compaction keeps exactly those that have their metadata *)
Theorem reopen_keeps_torrents s : g_tors (r_reopen s) = g_tors s. Proof. reflexivity. Qed.
Theorem compact_keeps_torrents_with_metadata s : g_tors (r_compact s) = filter r_hasinfo (g_tors s). Proof. reflexivity. Qed.
