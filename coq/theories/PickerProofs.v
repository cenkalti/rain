(* C09 (peer half): soundness of every legal pick and the inductive invariants of the picker
   state under every operation sequence of the glue; the availability counter; C10: an idle holder
   of a needed piece always gets a pick. *)
From RainV Require Import Lib Picker.

Lemma mem_true x l : mem x l = true <-> In x l.
Proof.
  unfold mem. rewrite existsb_exists. split.
  - intros (y & Hy & E). apply Z.eqb_eq in E. subst y. exact Hy.
  - intros H. exists x. split; [exact H|apply Z.eqb_refl].
Qed.
Lemma mem_false x l : mem x l = false <-> ~ In x l.
Proof. rewrite <- mem_true. destruct (mem x l); split; intros; congruence. Qed.

Lemma in_sadd x y l : In x (sadd y l) <-> x = y \/ In x l.
Proof.
  unfold sadd. destruct (mem y l) eqn:E.
  - apply mem_true in E. split; [auto|]. intros [->|H]; auto.
  - rewrite in_app_iff. cbn. intuition congruence.
Qed.
Lemma in_srem x y l : In x (srem y l) <-> In x l /\ x <> y.
Proof. unfold srem. rewrite filter_In, negb_true_iff, Z.eqb_neq. reflexivity. Qed.

Lemma nodup_sadd y l : NoDup l -> NoDup (sadd y l).
Proof.
  intros H. unfold sadd. destruct (mem y l) eqn:E; [exact H|]. apply NoDup_app_one; [exact H|apply mem_false, E].
Qed.

Lemma zlen_sadd_le y l : zlen (sadd y l) <= zlen l + 1.
Proof. unfold sadd. destruct (mem y l); [lia|]. rewrite zlen_app. cbn. lia. Qed.
Lemma zlen_srem_le y l : zlen (srem y l) <= zlen l.
Proof.
  unfold srem, zlen. apply inj_le. induction l as [|x r IH]; cbn [filter length]; [lia|].
  destruct (negb (x =? y)); cbn [length]; lia.
Qed.
Lemma srem_id y l : ~ In y l -> srem y l = l.
Proof.
  intros H. induction l as [|x r IH]; [reflexivity|]. cbn [srem filter].
  destruct (Z.eqb_spec x y) as [->|_]; [destruct H; left; reflexivity|].
  cbn [negb]. f_equal. apply IH. intros A. apply H. right. exact A.
Qed.

Lemma nth_upd_nth_same {A} (l : list A) i f d : (i < length l)%nat -> nth i (upd_nth l i f) d = f (nth i l d).
Proof. revert i; induction l as [|x r IH]; intros [|i] H; cbn [length] in H; try lia; cbn [upd_nth nth]; auto. apply IH. lia. Qed.
Lemma nth_upd_nth_other {A} (l : list A) i j f d : i <> j -> nth j (upd_nth l i f) d = nth j l d.
Proof. revert i j; induction l as [|x r IH]; intros [|i] [|j] H; cbn [upd_nth nth]; auto; try congruence. Qed.
Lemma length_upd_nth {A} (l : list A) i f : length (upd_nth l i f) = length l.
Proof. revert i; induction l as [|x r IH]; intros [|i]; cbn [upd_nth length]; auto. Qed.

(* a reflexive relation that holds between x and [f x] holds between the two lists at every position;
   no range condition on the updated index *)
Lemma upd_nth_rel {A} (P : A -> A -> Prop) (f : A -> A) : (forall x, P x x) -> (forall x, P x (f x)) ->
  forall l i j d, P (nth j l d) (nth j (upd_nth l i f) d).
Proof. intros Hr Hf. induction l as [|x r IH]; intros [|i] [|j] d; cbn [upd_nth nth]; auto. Qed.

Lemma in_range_spec s i : in_range s i = true <-> 0 <= i < zlen (pieces s).
Proof. unfold in_range. rewrite andb_true_iff, Z.leb_le, Z.ltb_lt. reflexivity. Qed.

Lemma get_upd_piece s i f j : in_range s i = true -> 0 <= j ->
  get_piece (upd_piece s i f) j = if j =? i then f (get_piece s i) else get_piece s j.
Proof.
  intros Hr Hj. apply in_range_spec in Hr. unfold get_piece, upd_piece, with_pieces, zlen in *.
  destruct (Z.eqb_spec j i) as [->|Hne]; [apply nth_upd_nth_same|apply nth_upd_nth_other]; lia.
Qed.

Lemma upd_piece_rel (P : ppiece -> ppiece -> Prop) s i f j : (forall p, P p p) -> (forall p, P p (f p)) ->
  P (get_piece s j) (get_piece (upd_piece s i f) j).
Proof. intros Hr Hf. exact (upd_nth_rel P f Hr Hf (pieces s) (Z.to_nat i) (Z.to_nat j) default_piece). Qed.

Lemma len_upd_piece s i f : length (pieces (upd_piece s i f)) = length (pieces s).
Proof. apply length_upd_nth. Qed.
Lemma in_range_len s s' j : length (pieces s') = length (pieces s) -> in_range s' j = in_range s j.
Proof. unfold in_range, zlen. intros ->. reflexivity. Qed.
Lemma in_range_upd s i f j : in_range (upd_piece s i f) j = in_range s j.
Proof. apply in_range_len, len_upd_piece. Qed.

Lemma get_piece_default s i : in_range s i = false -> 0 <= i -> get_piece s i = default_piece.
Proof. intros H Hi. apply nth_overflow. unfold in_range, zlen in H. lia. Qed.

Lemma get_piece_neg s i : get_piece s i = get_piece s (Z.max 0 i).
Proof. unfold get_piece. f_equal. lia. Qed.

Lemma get_set_peer l id v q : get_peer (set_peer l id v) q = if q =? id then v else get_peer l q.
Proof.
  rewrite (Z.eqb_sym q id). induction l as [|[k w] r IH]; cbn [set_peer get_peer]; [reflexivity|].
  destruct (Z.eqb_spec k id) as [->|Hk]; cbn [get_peer].
  - destruct (id =? q); reflexivity.
  - rewrite IH. destruct (Z.eqb_spec k q) as [->|_]; [|reflexivity].
    destruct (Z.eqb_spec id q) as [->|_]; [contradiction|reflexivity].
Qed.

Lemma get_peer_filter pe : forall l q,
  get_peer (filter (fun kv : Z * ppeer => negb (fst kv =? pe)) l) q = if q =? pe then default_peer else get_peer l q.
Proof.
  induction l as [|[k w] r IH]; intros q; cbn [filter get_peer fst]; [destruct (q =? pe); reflexivity|].
  destruct (Z.eqb_spec k pe) as [->|Hk]; cbn [negb get_peer]; rewrite IH.
  - rewrite (Z.eqb_sym pe q). destruct (q =? pe); reflexivity.
  - destruct (Z.eqb_spec k q) as [->|_]; [|reflexivity]. destruct (Z.eqb_spec q pe); [contradiction|reflexivity].
Qed.

Lemma length_enum {A} (l : list A) : length (combine (map Z.of_nat (seq 0 (length l))) l) = length l.
Proof. rewrite combine_length, map_length, seq_length. apply Nat.min_id. Qed.

Lemma nth_enum {A} (l : list A) d n : (n < length l)%nat ->
  nth n (combine (map Z.of_nat (seq 0 (length l))) l) (0, d) = (Z.of_nat n, nth n l d).
Proof.
  intros H. rewrite combine_nth by (rewrite map_length, seq_length; reflexivity).
  rewrite (map_nth Z.of_nat _ 0%nat), seq_nth by exact H. reflexivity.
Qed.

Lemma in_enum {A} (l : list A) d i x :
  In (i, x) (combine (map Z.of_nat (seq 0 (length l))) l) <-> 0 <= i < zlen l /\ nth (Z.to_nat i) l d = x.
Proof.
  unfold zlen. split.
  - intros H. apply (In_nth _ _ (0, d)) in H as (n & Hn & E). rewrite length_enum in Hn.
    rewrite nth_enum in E by exact Hn. injection E as <- <-. rewrite Nat2Z.id. split; [lia|reflexivity].
  - intros [Hi <-]. rewrite <- (Z2Nat.id i) at 1 by lia. rewrite <- (nth_enum l d) by lia. apply nth_In.
    rewrite length_enum. lia.
Qed.

Lemma in_cands s c i p : In (i, p) (cands s c) <-> in_range s i = true /\ get_piece s i = p /\ c p = true.
Proof. unfold cands, indexed, get_piece. rewrite filter_In, (in_enum _ default_piece), in_range_spec. tauto. Qed.

Lemma cands_nonempty s c i : in_range s i = true -> c (get_piece s i) = true -> cands s c <> [].
Proof. intros Hr Hc E. assert (H : In (i, get_piece s i) (cands s c)) by (apply in_cands; auto). rewrite E in H. exact H. Qed.

Lemma legal_min_cand s c key i : legal_min s c key i = true ->
  in_range s i = true /\ c (get_piece s i) = true.
Proof.
  unfold legal_min. destruct (min_key key (cands s c)); [|discriminate].
  rewrite existsb_exists. intros ([j p] & Hin & H). cbn [fst snd] in H. apply andb_prop in H as [H _]. apply Z.eqb_eq in H. subst j.
  apply in_cands in Hin as (H1 & <- & H3). auto.
Qed.

Lemma first_cand_spec s c i : first_cand s c = Some i -> in_range s i = true /\ c (get_piece s i) = true.
Proof.
  unfold first_cand. destruct (cands s c) as [|[j p] r] eqn:E; [discriminate|]. intros [= <-].
  assert (Hin : In (j, p) (cands s c)) by (rewrite E; left; reflexivity).
  apply in_cands in Hin as (H1 & <- & H3). auto.
Qed.

(* the indexes of [indexed s] increase, so the first candidate has the least index *)
Lemma enum_head_least {A} (f : Z * A -> bool) (l : list A) : forall k x r,
  filter f (combine (map Z.of_nat (seq k (length l))) l) = x :: r -> forall y, In y (x :: r) -> fst x <= fst y.
Proof.
  induction l as [|a l IH]; intros k x r E y Hy; cbn [length seq map combine filter] in E; [discriminate|].
  destruct (f (Z.of_nat k, a)); [|exact (IH _ _ _ E y Hy)].
  injection E as <- <-. destruct Hy as [<-|Hy]; [lia|]. apply filter_In in Hy as [Hy _]. destruct y as [j b].
  apply in_combine_l, in_map_iff in Hy as (n & <- & Hn). apply in_seq in Hn. cbn [fst]. lia.
Qed.
Lemma first_cand_least s c i : first_cand s c = Some i -> forall j p, In (j, p) (cands s c) -> i <= j.
Proof.
  unfold first_cand, cands, indexed. destruct (filter _ _) as [|x r] eqn:E; [discriminate|]. intros [= <-] j p Hin.
  exact (enum_head_least _ _ _ _ _ E (j, p) Hin).
Qed.

Lemma first_af_spec s pe : forall af i, first_af s pe af = Some i -> In i af /\ af_cand s pe i = true.
Proof.
  induction af as [|j r IH]; intros i H; cbn [first_af] in H; [discriminate|].
  destruct (af_cand s pe j) eqn:E; [inversion H; subst; split; [left; reflexivity|exact E]|].
  destruct (IH _ H). split; [right; assumption|assumption].
Qed.
Lemma lowest_af_spec s pe : forall af best i, lowest_af s pe af best = Some i ->
  (In i af /\ af_cand s pe i = true) \/ best = Some i.
Proof.
  induction af as [|j r IH]; intros best i H; cbn [lowest_af] in H; [right; exact H|].
  destruct (IH _ _ H) as [[H1 H2]|Hb]; [left; split; [right; assumption|assumption]|].
  destruct (af_cand s pe j) eqn:E; [|right; exact Hb].
  destruct best as [b|].
  - destruct (j <? b); [inversion Hb; subst; left; split; [left; reflexivity|exact E]|right; exact Hb].
  - inversion Hb; subst. left. split; [left; reflexivity|exact E].
Qed.

(* an unrequested piece can be picked whatever the end-game limit is, hence at least 1 *)
Definition limit (s : picker) : Z := Z.max 1 (maxdup s).

(* what every stage of findPiece guarantees of the piece it offers to [pe] *)
Definition offerable (s : picker) (pe : Z) (p : ppiece) : Prop :=
  p_done p = false /\ p_writing p = false /\ In pe (p_having p) /\ zlen (p_req p) < limit s.

Lemma open_spec p : open_ p = true <-> p_done p = false /\ p_writing p = false.
Proof. unfold open_. destruct (p_done p), (p_writing p); cbn; intuition congruence. Qed.

Lemma c_unreq_has_spec pe p : c_unreq_has pe p = true <-> open_ p = true /\ p_req p = [] /\ In pe (p_having p).
Proof. unfold c_unreq_has. rewrite !andb_true_iff, mem_true, Nat.eqb_eq, length_zero_iff_nil. tauto. Qed.

Lemma c_endgame_spec s pe p : c_endgame s pe p = true <-> open_ p = true /\ zlen (p_req p) < maxdup s /\ In pe (p_having p).
Proof. unfold c_endgame. rewrite !andb_true_iff, mem_true, Z.ltb_lt. tauto. Qed.

Lemma c_unreq_has_offerable s pe p : c_unreq_has pe p = true -> offerable s pe p.
Proof.
  intros H. apply c_unreq_has_spec in H as (Ho & Hq & Hh). apply open_spec in Ho as [Hd Hw].
  repeat split; auto. rewrite Hq. unfold limit. cbn. lia.
Qed.

Lemma c_endgame_offerable s pe p : c_endgame s pe p = true -> offerable s pe p.
Proof.
  intros H. apply c_endgame_spec in H as (Ho & Hq & Hh). apply open_spec in Ho as [Hd Hw].
  repeat split; auto. unfold limit. lia.
Qed.

Lemma c_edge_unreq pe p : c_edge pe p = true -> c_unreq_has pe p = true.
Proof. unfold c_edge. intros H. apply andb_prop in H. apply H. Qed.

Lemma c_stalled_endgame s pe p : c_stalled s pe p = true -> c_endgame s pe p = true.
Proof.
  unfold c_stalled. rewrite !andb_true_iff. intros [[[Ho _] Hq] Hh]. unfold c_endgame. rewrite Ho, Hq, Hh. reflexivity.
Qed.

Lemma af_cand_spec s pe i : af_cand s pe i = true <-> in_range s i = true /\ c_unreq_has pe (get_piece s i) = true.
Proof. unfold af_cand, c_unreq_has. rewrite !andb_true_iff. tauto. Qed.

Definition stage_ok (s : picker) (pe : Z) (st : stage) : Prop :=
  let P := get_peer (peers s) pe in
  match st with
  | StNone => True
  | StFirst i af => in_range s i = true /\ offerable s pe (get_piece s i) /\
                    (if af then In i (pe_af P) else pe_choking P = false)
  | StMin c _ => pe_choking P = false /\ forall p, c p = true -> offerable s pe p
  end.

Lemma stage_first s pe i (af : bool) : in_range s i = true /\ c_unreq_has pe (get_piece s i) = true ->
  (if af then In i (pe_af (get_peer (peers s) pe)) else pe_choking (get_peer (peers s) pe) = false) ->
  stage_ok s pe (StFirst i af).
Proof. intros [Hr Hc] H. split; [exact Hr|]. split; [apply c_unreq_has_offerable, Hc|exact H]. Qed.

Lemma find_piece_ok s pe : pe_downloading (get_peer (peers s) pe) = false -> stage_ok s pe (fst (find_piece s pe)).
Proof.
  intros Hd. unfold find_piece. set (P := get_peer (peers s) pe) in *. rewrite Hd.
  assert (Haf : forall j, (if sequential s then lowest_af s pe (pe_af P) None else first_af s pe (pe_af P)) = Some j ->
                stage_ok s pe (StFirst j true)).
  { intros j E. assert (Hj : In j (pe_af P) /\ af_cand s pe j = true).
    { destruct (sequential s); [apply lowest_af_spec in E as [E|E]; [exact E|discriminate]|exact (first_af_spec _ _ _ _ E)]. }
    apply stage_first; [apply af_cand_spec|]; apply Hj. }
  destruct (pe_choking P) eqn:Ec.
  - rewrite andb_false_r. destruct (if sequential s then _ else _) as [j|]; [apply Haf; reflexivity|exact I].
  - rewrite andb_true_r.
    destruct (if sequential s then first_cand s (c_edge pe) else None) as [j|] eqn:E1.
    { destruct (sequential s); [|discriminate]. apply first_cand_spec in E1 as [Hr Hc].
      apply stage_first; [split; [exact Hr|apply c_edge_unreq, Hc]|exact Ec]. }
    destruct (if sequential s then lowest_af s pe (pe_af P) None else first_af s pe (pe_af P)) as [j|]; [apply Haf; reflexivity|].
    assert (Heg : stage_ok s pe (StMin (c_endgame s pe) running)) by (split; [exact Ec|apply c_endgame_offerable]).
    destruct (endgame s); [exact Heg|].
    destruct (if sequential s then first_cand s (c_unreq_has pe) else _) as [j|] eqn:E3.
    { destruct (sequential s).
      - apply stage_first; [exact (first_cand_spec _ _ _ E3)|exact Ec].
      - split; [exact Ec|apply c_unreq_has_offerable]. }
    destruct (cands s c_unreq); [exact Heg|].
    split; [exact Ec|]. intros q Hq. apply c_endgame_offerable, c_stalled_endgame, Hq.
Qed.

(* C09: every pick that [pick_check] accepts is sound *)
Theorem pick_sound s pe i af : pick_legal s (fst (find_piece s pe)) i af = true ->
  let p := get_piece s i in let P := get_peer (peers s) pe in
  in_range s i = true /\ p_done p = false /\ p_writing p = false /\ In pe (p_having p) /\
  pe_downloading P = false /\
  (pe_choking P = false \/ (af = true /\ In i (pe_af P))) /\
  zlen (p_req p) < limit s.
Proof.
  intros H p P.
  assert (Hd : pe_downloading P = false).
  { destruct (pe_downloading P) eqn:E; [|reflexivity]. unfold find_piece in H. fold P in H. rewrite E in H. discriminate. }
  pose proof (find_piece_ok s pe Hd) as K.
  destruct (fst (find_piece s pe)) as [|j a|c key]; cbn [pick_legal stage_ok] in *; [discriminate| |].
  - apply andb_prop in H as [H1 H2]. apply Z.eqb_eq in H1. apply Bool.eqb_prop in H2. subst j a.
    destruct K as (Hr & (E1 & E2 & E3 & E4) & Hc). repeat split; auto. destruct af; auto.
  - apply andb_prop in H as [_ H]. apply legal_min_cand in H as [Hr Hc]. destruct K as [Hk K].
    destruct (K _ Hc) as (E1 & E2 & E3 & E4). repeat split; auto.
Qed.

(* in sequential mode an unchoked peer with no file-edge and no allowed-fast candidate gets the
   lowest-indexed piece that is open, unrequested and held by the peer *)
Theorem sequential_lowest s pe i : sequential s = true -> endgame s = false ->
  let P := get_peer (peers s) pe in
  pe_downloading P = false -> pe_choking P = false ->
  first_cand s (c_edge pe) = None -> lowest_af s pe (pe_af P) None = None ->
  first_cand s (c_unreq_has pe) = Some i ->
  fst (find_piece s pe) = StFirst i false /\
  forall j p, In (j, p) (cands s (c_unreq_has pe)) -> i <= j.
Proof.
  intros Hs He P Hd Hc H1 H2 H3. split.
  - unfold find_piece. fold P. rewrite Hd, Hs, Hc, H1, H2, He, H3. reflexivity.
  - exact (first_cand_least s _ i H3).
Qed.

Definition R (s : picker) (i : Z) : list Z := p_req (get_piece s i).
Definition Hv (s : picker) (i : Z) : list Z := p_having (get_piece s i).
Definition PP (s : picker) (pe : Z) : option (Z * bool) := pe_piece (get_peer (peers s) pe).
Definition Dl (s : picker) (pe : Z) : bool := pe_downloading (get_peer (peers s) pe).

(* requesters hold the piece (a); a requester's record points at the piece (b) and back (c); a peer
   without a record entry is not downloading (d); at most [limit] requesters, each once (e).
   Pieces are read through [Z.to_nat], so a negative index would alias piece 0: hence [0 <= i]. *)
Record PInv (s : picker) : Prop := {
  inv_a : forall i pe, 0 <= i -> In pe (R s i) -> In pe (Hv s i);
  inv_b : forall i pe, 0 <= i -> In pe (R s i) -> in_range s i = true /\ exists af, PP s pe = Some (i, af);
  inv_c : forall pe i af, PP s pe = Some (i, af) -> 0 <= i /\ In pe (R s i) /\ Dl s pe = true;
  inv_d : forall pe, PP s pe = None -> Dl s pe = false;
  inv_e : forall i, 0 <= i -> zlen (R s i) <= limit s /\ NoDup (R s i)
}.

(* a peer downloads at most one piece at a time *)
Lemma one_piece_per_peer s pe i j : PInv s -> 0 <= i -> 0 <= j -> In pe (R s i) -> In pe (R s j) -> i = j.
Proof.
  intros I Hi Hj H1 H2. destruct (inv_b s I i pe Hi H1) as (_ & a1 & E1). destruct (inv_b s I j pe Hj H2) as (_ & a2 & E2).
  congruence.
Qed.

Lemma R_out s i : in_range s i = false -> 0 <= i -> R s i = [].
Proof. intros H Hi. unfold R. rewrite get_piece_default by assumption. reflexivity. Qed.

Lemma pp_in_range s pe i af : PInv s -> PP s pe = Some (i, af) -> 0 <= i /\ in_range s i = true.
Proof. intros I H. destruct (inv_c s I pe i af H) as (A & B & _). split; [exact A|]. apply (inv_b s I i pe A B). Qed.

Lemma dl_false_pp_none s pe : PInv s -> Dl s pe = false -> PP s pe = None.
Proof.
  intros I H. destruct (PP s pe) as [[i af]|] eqn:E; [|reflexivity].
  destruct (inv_c s I pe i af E) as (_ & _ & C). congruence.
Qed.

Lemma pp_none_not_requesting s pe : PInv s -> PP s pe = None -> forall j, 0 <= j -> ~ In pe (R s j).
Proof. intros I Hn j Hj Hin. destruct (inv_b s I j pe Hj Hin) as (_ & a & B). congruence. Qed.

(* the invariant reads the state through R, Hv, in_range, PP, Dl and maxdup only; it survives when
   these stay and the holders of a piece keep including its requesters *)
Lemma pinv_frame s s' : PInv s ->
  (forall i, 0 <= i -> R s' i = R s i) ->
  (forall i pe, 0 <= i -> In pe (R s i) -> In pe (Hv s i) -> In pe (Hv s' i)) ->
  (forall i, in_range s' i = in_range s i) ->
  (forall pe, PP s' pe = PP s pe) -> (forall pe, Dl s' pe = Dl s pe) -> maxdup s' = maxdup s -> PInv s'.
Proof.
  intros I HR HH Hrange HP HD Hm. constructor.
  - intros i pe Hi H. rewrite HR in H by assumption. apply HH; [assumption|assumption|]. apply (inv_a s I); assumption.
  - intros i pe Hi H. rewrite HR in H by assumption. rewrite Hrange, HP. apply (inv_b s I); assumption.
  - intros pe i af H. rewrite HP in H. destruct (inv_c s I pe i af H) as (A & B & C). rewrite HR, HD by assumption. auto.
  - intros pe H. rewrite HP in H. rewrite HD. apply (inv_d s I). exact H.
  - intros i Hi. rewrite HR by assumption. unfold limit. rewrite Hm. apply (inv_e s I i Hi).
Qed.

(* in particular it does not depend on the availability counter, the end-game flag or the mode *)
Lemma pinv_ext s s' : pieces s' = pieces s -> peers s' = peers s -> maxdup s' = maxdup s -> PInv s -> PInv s'.
Proof. destruct s, s'. cbn. intros -> -> -> [A B C D E]. constructor; assumption. Qed.

Lemma peer_views s pe v q :
  PP (with_peer s pe v) q = (if q =? pe then pe_piece v else PP s q) /\
  Dl (with_peer s pe v) q = (if q =? pe then pe_downloading v else Dl s q).
Proof. unfold PP, Dl. cbn [with_peer peers]. rewrite get_set_peer. destruct (q =? pe); split; reflexivity. Qed.

(* one piece and one peer record changed, the holders of the piece kept: the shape of a new and of a closed download *)
Lemma cell_views s i f pe v s' : s' = with_peer (upd_piece s i f) pe v ->
  in_range s i = true -> (forall p, p_having (f p) = p_having p) ->
  (forall j, 0 <= j -> R s' j = (if j =? i then p_req (f (get_piece s i)) else R s j) /\ Hv s' j = Hv s j) /\
  (forall j, in_range s' j = in_range s j) /\
  (forall q, PP s' q = (if q =? pe then pe_piece v else PP s q) /\ Dl s' q = (if q =? pe then pe_downloading v else Dl s q)) /\
  limit s' = limit s.
Proof.
  intros -> Hr Hf. split; [|split; [intros j; apply in_range_upd|split; [intros q; apply (peer_views (upd_piece s i f))|reflexivity]]].
  intros j Hj. unfold R, Hv. change (get_piece (with_peer _ pe v) j) with (get_piece (upd_piece s i f) j).
  rewrite get_upd_piece by assumption. destruct (Z.eqb_spec j i) as [->|_]; [rewrite Hf|]; split; reflexivity.
Qed.

(* updates of one piece that keep its requesters and do not lose holders: have, the snub/choke marks, the flags *)
Lemma upd_inv s i f : PInv s ->
  (forall p, p_req (f p) = p_req p) -> (forall p, incl (p_having p) (p_having (f p))) -> PInv (upd_piece s i f).
Proof.
  intros I Hq Hh. apply (pinv_frame s); try reflexivity; [exact I| | |apply in_range_upd].
  - intros j _. apply (upd_piece_rel (fun p p' => p_req p' = p_req p)); auto.
  - intros j q _ _. apply (upd_piece_rel (fun p p' => incl (p_having p) (p_having p'))); auto using incl_refl.
Qed.

Lemma peer_only s pe v : PInv s -> pe_piece v = PP s pe -> pe_downloading v = Dl s pe -> PInv (with_peer s pe v).
Proof.
  intros I H1 H2. apply (pinv_frame s); try reflexivity; [exact I|auto| |]; intros q.
  - rewrite (proj1 (peer_views s pe v q)). destruct (Z.eqb_spec q pe) as [->|_]; auto.
  - rewrite (proj2 (peer_views s pe v q)). destruct (Z.eqb_spec q pe) as [->|_]; auto.
Qed.

(* Requested.Add(pe) on a piece the idle peer has, with the glue: pieceDownloaders[pe], pe.Downloading
   ([assign_piece] of PickerWs.v is this state) *)
Lemma assign_inv s pe i af : PInv s -> in_range s i = true -> In pe (Hv s i) -> Dl s pe = false -> zlen (R s i) < limit s ->
  let P := get_peer (peers s) pe in
  PInv (with_peer (upd_piece s i (fun p => set_marks p (sadd pe (p_req p)) (p_snub p) (p_chok p))) pe
          {| pe_choking := pe_choking P; pe_downloading := true; pe_af := pe_af P; pe_piece := Some (i, af) |}).
Proof.
  intros I Hr Hhave Hdl Hlim P. apply in_range_spec in Hr as Hi. destruct Hi as [Hi _].
  pose proof (pp_none_not_requesting s pe I (dl_false_pp_none s pe I Hdl)) as Hnot.
  remember (with_peer _ pe _) as s' eqn:Es. destruct (cell_views _ _ _ _ _ _ Es Hr (fun _ => eq_refl)) as (HR & Hrg & HP & Hlm).
  cbn [set_marks p_req pe_piece pe_downloading] in HR, HP. fold (R s i) in HR.
  (* requesters afterwards: pe on piece i, and those before *)
  assert (HQ : forall j q, 0 <= j -> In q (R s' j) <-> (j = i /\ q = pe) \/ In q (R s j)).
  { intros j q Hj. destruct (HR j Hj) as [-> _]. destruct (Z.eqb_spec j i) as [->|Hne]; [rewrite in_sadd|]; intuition congruence. }
  constructor.
  - intros j q Hj Hq. destruct (HR j Hj) as [_ ->]. apply HQ in Hq as [[-> ->]|Hq]; [exact Hhave|exact (inv_a s I j q Hj Hq)|exact Hj].
  - intros j q Hj Hq. rewrite Hrg. destruct (HP q) as [-> _].
    apply HQ in Hq as [[-> ->]|Hq]; [rewrite Z.eqb_refl; eauto| |exact Hj].
    destruct (Z.eqb_spec q pe) as [->|_]; [destruct (Hnot j Hj Hq)|exact (inv_b s I j q Hj Hq)].
  - intros q j a Hq. destruct (HP q) as [E1 ->]. rewrite E1 in Hq. destruct (Z.eqb_spec q pe) as [->|_].
    + injection Hq as <- <-. split; [exact Hi|]. split; [apply HQ; auto|reflexivity].
    + destruct (inv_c s I q j a Hq) as (A & B & C). split; [exact A|]. split; [apply HQ; auto|exact C].
  - intros q Hq. destruct (HP q) as [E1 ->]. rewrite E1 in Hq. destruct (q =? pe); [discriminate|]. exact (inv_d s I q Hq).
  - intros j Hj. destruct (HR j Hj) as [-> _]. rewrite Hlm. destruct (inv_e s I j Hj) as [A B].
    destruct (Z.eqb_spec j i) as [->|_]; [|auto]. split; [pose proof (zlen_sadd_le pe (R s i)); lia|exact (nodup_sadd pe _ B)].
Qed.

Lemma close_dl_PP s pe q : PP (close_dl s pe) q = if q =? pe then None else PP s q.
Proof.
  unfold close_dl. fold (PP s pe). destruct (PP s pe) as [[i af]|] eqn:Ep.
  - apply (peer_views (cancel_download s pe i)).
  - destruct (Z.eqb_spec q pe) as [->|_]; [exact Ep|reflexivity].
Qed.

Lemma close_dl_inv s pe : PInv s -> PInv (close_dl s pe).
Proof.
  intros I. unfold close_dl. fold (PP s pe). destruct (PP s pe) as [[i af]|] eqn:Ep; [|exact I].
  destruct (pp_in_range s pe i af I Ep) as [Hi Hr].
  remember (with_peer _ pe _) as s' eqn:Es. destruct (cell_views _ _ _ _ _ _ Es Hr (fun _ => eq_refl)) as (HR & Hrg & HP & Hlm).
  cbn [set_marks p_req pe_piece pe_downloading] in HR, HP. fold (R s i) in HR.
  (* requesters afterwards: those before, without pe *)
  assert (HQ : forall j q, 0 <= j -> In q (R s' j) <-> In q (R s j) /\ q <> pe).
  { intros j q Hj. destruct (HR j Hj) as [-> _]. destruct (Z.eqb_spec j i) as [->|Hne]; [apply in_srem|].
    split; [|tauto]. intros Hq. split; [exact Hq|]. intros ->. apply Hne. exact (one_piece_per_peer s pe j i I Hj Hi Hq (proj1 (proj2 (inv_c s I pe i af Ep)))). }
  constructor.
  - intros j q Hj Hq. destruct (HR j Hj) as [_ ->]. apply HQ in Hq as [Hq _]; [exact (inv_a s I j q Hj Hq)|exact Hj].
  - intros j q Hj Hq. rewrite Hrg. destruct (HP q) as [-> _].
    apply HQ in Hq as [Hq Hne]; [|exact Hj]. destruct (Z.eqb_spec q pe); [contradiction|exact (inv_b s I j q Hj Hq)].
  - intros q j a Hq. destruct (HP q) as [E1 ->]. rewrite E1 in Hq. destruct (Z.eqb_spec q pe) as [->|Hne]; [discriminate|].
    destruct (inv_c s I q j a Hq) as (A & B & C). split; [exact A|]. split; [apply HQ; auto|exact C].
  - intros q Hq. destruct (HP q) as [E1 ->]. rewrite E1 in Hq. destruct (q =? pe); [reflexivity|exact (inv_d s I q Hq)].
  - intros j Hj. destruct (HR j Hj) as [-> _]. rewrite Hlm. destruct (inv_e s I j Hj) as [A B].
    destruct (Z.eqb_spec j i) as [->|_]; [|auto]. split; [pose proof (zlen_srem_le pe (R s i)); lia|exact (NoDup_filter _ B)].
Qed.

(* HandleDisconnect: every piece loses the peer *)
Definition drop_peer (pe : Z) (p : ppiece) : ppiece :=
  set_having (set_marks p (srem pe (p_req p)) (srem pe (p_snub p)) (srem pe (p_chok p))) (srem pe (p_having p)).

Lemma get_remove_having s pe i j : in_range s i = true -> 0 <= j ->
  get_piece (remove_having s pe i) j =
  if j =? i then set_having (get_piece s i) (srem pe (p_having (get_piece s i))) else get_piece s j.
Proof.
  intros Hr Hj. unfold remove_having. destruct (mem pe (p_having (get_piece s i))) eqn:Em.
  - exact (get_upd_piece s i _ j Hr Hj).
  - apply mem_false in Em. destruct (Z.eqb_spec j i) as [->|_]; [|reflexivity].
    rewrite srem_id by exact Em. destruct (get_piece s i); reflexivity.
Qed.

Lemma disconnect_go_spec s pe n : (n <= length (pieces s))%nat ->
  let s' := disconnect_go n s pe in
  (forall j, 0 <= j -> get_piece s' j = if j <? Z.of_nat n then drop_peer pe (get_piece s j) else get_piece s j) /\
  length (pieces s') = length (pieces s) /\ peers s' = peers s /\ maxdup s' = maxdup s.
Proof.
  induction n as [|n IH]; intros Hn; cbn [disconnect_go].
  - split; [|repeat split; reflexivity]. intros j Hj. destruct (Z.ltb_spec j (Z.of_nat 0)); [lia|reflexivity].
  - destruct (IH ltac:(lia)) as (G & Ln & Pe & Md). set (s1 := disconnect_go n s pe) in *. set (k := Z.of_nat n).
    assert (Hk : in_range s1 k = true) by (apply in_range_spec; unfold zlen, k; lia).
    assert (Hk2 : in_range (cancel_download s1 pe k) k = true) by (unfold cancel_download; rewrite in_range_upd; exact Hk).
    split.
    + intros j Hj. rewrite get_remove_having by assumption. unfold cancel_download. rewrite !get_upd_piece, Z.eqb_refl, !G by (assumption || (unfold k; lia)).
      rewrite Nat2Z.inj_succ. fold k. destruct (Z.eqb_spec j k) as [->|Hne].
      * destruct (Z.ltb_spec k k), (Z.ltb_spec k (Z.succ k)); try lia. reflexivity.
      * destruct (Z.ltb_spec j k), (Z.ltb_spec j (Z.succ k)); try lia; reflexivity.
    + rewrite <- Ln, <- Pe, <- Md. unfold remove_having, cancel_download.
      destruct (mem pe _); cbn [pieces peers maxdup]; rewrite ?len_upd_piece; auto.
Qed.

Lemma get_handle_disconnect s pe j : get_piece (handle_disconnect s pe) j = drop_peer pe (get_piece s j).
Proof.
  rewrite (get_piece_neg s), get_piece_neg. destruct (disconnect_go_spec s pe _ (le_n _)) as (G & _).
  unfold handle_disconnect. rewrite G by lia.
  destruct (Z.ltb_spec (Z.max 0 j) (Z.of_nat (length (pieces s)))) as [|Hge]; [reflexivity|].
  rewrite get_piece_default; [reflexivity|unfold in_range, zlen; lia|lia].
Qed.

Lemma disconnect_RH s pe j :
  R (handle_disconnect s pe) j = srem pe (R s j) /\ Hv (handle_disconnect s pe) j = srem pe (Hv s j).
Proof. unfold R, Hv. rewrite get_handle_disconnect. split; reflexivity. Qed.

Lemma disconnect_same s pe : let s' := handle_disconnect s pe in
  length (pieces s') = length (pieces s) /\ peers s' = peers s /\ maxdup s' = maxdup s.
Proof. apply (disconnect_go_spec s pe _ (le_n _)). Qed.

(* closePeer also deletes the peer from t.peers: the state after ODisconnect is
   [forget_peer (handle_disconnect (close_dl s pe) pe) pe] *)
Definition forget_peer (s : picker) (pe : Z) : picker :=
  {| pieces := pieces s; peers := filter (fun kv => negb (fst kv =? pe)) (peers s); avail := avail s;
     endgame := endgame s; sequential := sequential s; maxdup := maxdup s |}.

Lemma get_peer_disconnect s pe q :
  get_peer (peers (forget_peer (handle_disconnect s pe) pe)) q = if q =? pe then default_peer else get_peer (peers s) q.
Proof. cbn [forget_peer peers]. rewrite get_peer_filter, (proj1 (proj2 (disconnect_same s pe))). reflexivity. Qed.

(* the disconnect of a peer whose download has been closed *)
Lemma disconnect_inv s pe : PInv s -> PP s pe = None -> PInv (forget_peer (handle_disconnect s pe) pe).
Proof.
  intros I Hn. pose proof (pp_none_not_requesting s pe I Hn) as Hnot.
  apply (pinv_frame s); [exact I| | |intros j; apply in_range_len, disconnect_same| | |apply disconnect_same].
  - intros j Hj. transitivity (srem pe (R s j)); [apply disconnect_RH|apply srem_id, Hnot, Hj].
  - intros j q Hj Hq Hh. change (In q (Hv (handle_disconnect s pe) j)). rewrite (proj2 (disconnect_RH s pe j)).
    apply in_srem. split; [exact Hh|]. intros ->. exact (Hnot j Hj Hq).
  - intros q. unfold PP. rewrite get_peer_disconnect. destruct (Z.eqb_spec q pe) as [->|_]; [symmetry; exact Hn|reflexivity].
  - intros q. unfold Dl. rewrite get_peer_disconnect.
    destruct (Z.eqb_spec q pe) as [->|_]; [symmetry; exact (inv_d s I pe Hn)|reflexivity].
Qed.

(* an accepted answer of PickFor: no piece, or a legal pick with the glue's new download; the end-game flag as findPiece left it *)
Lemma pick_check_some s pe obs s' : pick_check s pe obs = Some s' ->
  let s1 := with_endgame s (snd (find_piece s pe)) in
  s' = s1 \/
  exists i af, pick_legal s (fst (find_piece s pe)) i af = true /\
    let P := get_peer (peers s) pe in
    s' = with_peer (upd_piece s1 i (fun p => set_marks p (sadd pe (p_req p)) (p_snub p) (p_chok p))) pe
           {| pe_choking := pe_choking P; pe_downloading := true; pe_af := pe_af P; pe_piece := Some (i, af) |}.
Proof.
  unfold pick_check. destruct (find_piece s pe) as [st eg]. destruct obs as [[i af]|].
  - destruct (pick_legal s st i af) eqn:El; [|discriminate]. intros [= <-]. right. exists i, af. auto.
  - destruct (pick_possible s st); [discriminate|]. intros [= <-]. left. reflexivity.
Qed.

Lemma len_close_dl s pe : length (pieces (close_dl s pe)) = length (pieces s).
Proof. unfold close_dl. destruct (pe_piece _) as [[i af]|]; [apply len_upd_piece|reflexivity]. Qed.

Lemma pstep_len s o s' : pstep s o = Some s' -> length (pieces s') = length (pieces s).
Proof.
  intros H. destruct o as [pe i|pe i|pe|pe|pe|pe obs|pe|pe|i|i ok]; cbn [pstep] in H.
  (* OWriting and OWritten (9, 10), OUnchoke and OChoke (3, 4) differ only in the values they write *)
  9,10: destruct (in_range s i); [|discriminate]; injection H as <-; apply len_upd_piece.
  3,4: destruct (pe_piece _) as [[i [|]]|]; injection H as <-; try reflexivity; apply (len_upd_piece (with_peer s pe _)).
  - destruct (in_range s i); [|discriminate]. injection H as <-. unfold handle_have. destruct (mem pe _); [reflexivity|apply len_upd_piece].
  - destruct (in_range s i); [|discriminate]. injection H as <-. reflexivity.
  - destruct (pe_piece _) as [[i af]|]; [|injection H as <-; reflexivity]. destruct (pe_choking _); [injection H as <-; reflexivity|].
    destruct (mem pe _); [discriminate|]. injection H as <-. apply len_upd_piece.
  - apply pick_check_some in H as [->|(i & af & _ & ->)]; [reflexivity|apply (len_upd_piece (with_endgame s _))].
  - injection H as <-. apply len_close_dl.
  - injection H as <-. cbn [pieces]. rewrite (proj1 (disconnect_same (close_dl s pe) pe)). apply len_close_dl.
Qed.

Theorem pstep_inv s o s' : PInv s -> pstep s o = Some s' -> PInv s'.
Proof.
  intros I H. destruct o as [pe i|pe i|pe|pe|pe|pe obs|pe|pe|i|i ok]; cbn [pstep] in H.
  9,10: destruct (in_range s i); [|discriminate]; injection H as <-; apply upd_inv; auto using incl_refl.
  - destruct (in_range s i); [|discriminate]. injection H as <-. unfold handle_have.
    destruct (mem pe (p_having (get_piece s i))); [exact I|].
    apply (pinv_ext (upd_piece s i (fun p => set_having p (p_having p ++ [pe])))); try reflexivity.
    apply upd_inv; auto. intros p. apply incl_appl, incl_refl.
  - destruct (in_range s i); [|discriminate]. injection H as <-. apply peer_only; auto.
  - set (P := get_peer (peers s) pe) in *.
    assert (I1 : PInv (with_peer s pe {| pe_choking := false; pe_downloading := pe_downloading P; pe_af := pe_af P; pe_piece := pe_piece P |}))
      by (apply peer_only; auto).
    destruct (pe_piece P) as [[i [|]]|]; injection H as <-; auto. apply upd_inv; auto using incl_refl.
  - set (P := get_peer (peers s) pe) in *.
    assert (I1 : PInv (with_peer s pe {| pe_choking := true; pe_downloading := pe_downloading P; pe_af := pe_af P; pe_piece := pe_piece P |}))
      by (apply peer_only; auto).
    destruct (pe_piece P) as [[i [|]]|]; injection H as <-; auto. apply upd_inv; auto using incl_refl.
  - destruct (pe_piece (get_peer (peers s) pe)) as [[i af]|]; [|injection H as <-; exact I].
    destruct (pe_choking _); [injection H as <-; exact I|]. destruct (mem pe _); [discriminate|]. injection H as <-.
    apply upd_inv; auto using incl_refl.
  - assert (Ieg : forall eg, PInv (with_endgame s eg)) by (intros eg; revert I; apply pinv_ext; reflexivity).
    apply pick_check_some in H as [->|(i & af & El & ->)]; [apply Ieg|].
    destruct (pick_sound s pe i af El) as (Hr & _ & _ & Hhave & Hdl & _ & Hlim).
    apply (assign_inv (with_endgame s _)); [apply Ieg|exact Hr|exact Hhave|exact Hdl|exact Hlim].
  - injection H as <-. apply close_dl_inv, I.
  - injection H as <-. apply disconnect_inv; [apply close_dl_inv, I|]. rewrite close_dl_PP, Z.eqb_refl. reflexivity.
Qed.

Fixpoint run_ops (s : picker) (ops : list pop) : option picker :=
  match ops with
  | [] => Some s
  | o :: r => match pstep s o with Some s' => run_ops s' r | None => None end
  end.

Definition init_picker (ps : list ppiece) (seq : bool) (md : Z) : picker :=
  {| pieces := ps; peers := []; avail := 0; endgame := false; sequential := seq; maxdup := md |}.

Lemma run_ops_inv (Q : picker -> Prop) : (forall s o s', Q s -> pstep s o = Some s' -> Q s') ->
  forall ops s s', Q s -> run_ops s ops = Some s' -> Q s'.
Proof. exact (run_inv pstep run_ops (fun _ => eq_refl) (fun _ _ _ => eq_refl) Q). Qed.

Lemma init_piece (Q : ppiece -> Prop) ps seq md i : Forall Q ps -> Q default_piece -> Q (get_piece (init_picker ps seq md) i).
Proof.
  intros H Hd. unfold get_piece. apply nth_Forall; assumption.
Qed.

Lemma init_inv ps seq md : Forall (fun p => p_req p = []) ps -> PInv (init_picker ps seq md).
Proof.
  intros Hreq.
  assert (HR : forall i, R (init_picker ps seq md) i = [])
    by (intros i; apply (init_piece (fun p => p_req p = [])); [exact Hreq|reflexivity]).
  constructor.
  1,2: intros i pe _ H; rewrite HR in H; destruct H.
  - intros pe i af H. discriminate.
  - intros pe _. reflexivity.
  - intros i _. rewrite HR. split; [unfold limit; cbn; lia|constructor].
Qed.

(* C09 (peer half): in every state reachable by any sequence of glue-level operations whose
   picks the real picker made legally, a peer downloads at most one piece, every requester of a
   piece has it, and no piece has more simultaneous downloads than max(1, end-game limit) *)
Theorem reachable_inv ps seq md ops s : Forall (fun p => p_req p = []) ps ->
  run_ops (init_picker ps seq md) ops = Some s -> PInv s.
Proof. intros Hreq. apply (run_ops_inv PInv pstep_inv). apply init_inv, Hreq. Qed.

(* Available() equals the number of pieces some peer holds, in every reachable state *)
Definition held (p : ppiece) : Z := if Nat.eqb (length (p_having p)) 0 then 0 else 1.
Definition count_held (l : list ppiece) : Z := fold_right (fun p a => held p + a) 0 l.
Definition AvInv (s : picker) : Prop := avail s = count_held (pieces s).

Lemma count_upd l : forall i f,
  count_held (upd_nth l i f) = count_held l + match nth_error l i with Some p => held (f p) - held p | None => 0 end.
Proof.
  induction l as [|x r IH]; intros [|i] f; cbn [upd_nth count_held fold_right nth_error]; try lia.
  specialize (IH i f). unfold count_held in IH. lia.
Qed.

Lemma count_upd_piece s i f : in_range s i = true ->
  count_held (pieces (upd_piece s i f)) = count_held (pieces s) + held (f (get_piece s i)) - held (get_piece s i).
Proof.
  intros Hr. apply in_range_spec in Hr. unfold zlen in Hr. unfold upd_piece, with_pieces, get_piece. cbn [pieces].
  rewrite count_upd, (nth_error_nth' _ default_piece) by lia. lia.
Qed.

Lemma have_av s pe i : in_range s i = true -> AvInv s -> AvInv (handle_have s pe i).
Proof.
  intros Hr A. unfold AvInv, handle_have in *. destruct (mem pe (p_having (get_piece s i))); [exact A|].
  cbn [avail pieces]. rewrite count_upd_piece by exact Hr. unfold held. cbn [set_having p_having].
  destruct (p_having (get_piece s i)); cbn [app length Nat.eqb]; lia.
Qed.

Lemma remove_having_av s pe i : 0 <= i -> AvInv s -> AvInv (remove_having s pe i).
Proof.
  intros Hi A. unfold AvInv, remove_having in *. destruct (mem pe (p_having (get_piece s i))) eqn:Em; [|exact A].
  destruct (in_range s i) eqn:Hr; [|rewrite get_piece_default in Em by assumption; discriminate].
  cbn [avail pieces]. rewrite count_upd_piece by exact Hr. unfold held. cbn [set_having p_having].
  destruct (p_having (get_piece s i)) as [|x h]; [discriminate|]. cbn [length Nat.eqb].
  destruct (Nat.eqb (length (srem pe (x :: h))) 0); lia.
Qed.

(* the marks, the flags and Requested do not enter the counter *)
Lemma upd_av s i f : (forall p, p_having (f p) = p_having p) -> AvInv s -> AvInv (upd_piece s i f).
Proof.
  intros Hf A. unfold AvInv, upd_piece, with_pieces in *. cbn [avail pieces]. rewrite count_upd.
  destruct (nth_error _ _); [unfold held; rewrite Hf|]; lia.
Qed.

Lemma disconnect_av s pe : forall n, AvInv s -> AvInv (disconnect_go n s pe).
Proof.
  induction n as [|n IH]; intros A; [exact A|].
  apply remove_having_av; [lia|]. apply upd_av; [reflexivity|]. apply IH. exact A.
Qed.

Lemma close_dl_av s pe : AvInv s -> AvInv (close_dl s pe).
Proof.
  intros A. unfold close_dl. destruct (pe_piece (get_peer (peers s) pe)) as [[i af]|]; [|exact A].
  apply upd_av; [reflexivity|exact A].
Qed.

Theorem pstep_av s o s' : AvInv s -> pstep s o = Some s' -> AvInv s'.
Proof.
  intros A H. destruct o as [pe i|pe i|pe|pe|pe|pe obs|pe|pe|i|i ok]; cbn [pstep] in H.
  9,10: destruct (in_range s i); [|discriminate]; injection H as <-; apply upd_av; [reflexivity|exact A].
  3,4: destruct (pe_piece (get_peer (peers s) pe)) as [[i [|]]|]; injection H as <-; try exact A; apply upd_av; [reflexivity|exact A].
  - destruct (in_range s i) eqn:Er; [|discriminate]. injection H as <-. apply have_av; assumption.
  - destruct (in_range s i); [|discriminate]. injection H as <-. exact A.
  - destruct (pe_piece (get_peer (peers s) pe)) as [[i af]|]; [|injection H as <-; exact A].
    destruct (pe_choking (get_peer (peers s) pe)); [injection H as <-; exact A|].
    destruct (mem pe (p_chok (get_piece s i))); [discriminate|]. injection H as <-. apply upd_av; [reflexivity|exact A].
  - apply pick_check_some in H as [->|(i & af & _ & ->)]; [exact A|apply (upd_av (with_endgame s _)); [reflexivity|exact A]].
  - injection H as <-. apply close_dl_av. exact A.
  - injection H as <-. exact (disconnect_av _ pe _ (close_dl_av s pe A)).
Qed.

Lemma init_av ps seq md : Forall (fun p => p_having p = []) ps -> AvInv (init_picker ps seq md).
Proof.
  intros Hh. unfold AvInv, init_picker. cbn [avail pieces].
  induction Hh as [|p r Hp Hr IH]; [reflexivity|]. cbn [count_held fold_right]. fold (count_held r). unfold held. rewrite Hp, <- IH. reflexivity.
Qed.

Theorem reachable_av ps seq md ops s : Forall (fun p => p_having p = []) ps ->
  run_ops (init_picker ps seq md) ops = Some s -> avail s = count_held (pieces s).
Proof. intros Hh. apply (run_ops_inv AvInv pstep_av). apply init_av, Hh. Qed.

(* C10: an idle unchoking holder of a needed, unrequested piece always gets a pick *)
Theorem idle_holder_gets_a_pick s pe i : 1 <= maxdup s ->
  let P := get_peer (peers s) pe in let p := get_piece s i in
  pe_downloading P = false -> pe_choking P = false ->
  in_range s i = true -> p_done p = false -> p_writing p = false -> In pe (p_having p) -> p_req p = [] ->
  pick_possible s (fst (find_piece s pe)) = true.
Proof.
  intros Hm P p Hd Hc Hr Hdone Hwr Hhave Hreq.
  assert (Hopen : open_ p = true) by (apply open_spec; auto).
  assert (Nun : cands s (c_unreq_has pe) <> []) by (apply (cands_nonempty s _ i Hr), c_unreq_has_spec; auto).
  assert (Neg : cands s (c_endgame s pe) <> []).
  { apply (cands_nonempty s _ i Hr), c_endgame_spec. fold p. rewrite Hreq. repeat split; auto. apply (Z.lt_le_trans 0 1); [reflexivity|exact Hm]. }
  unfold find_piece. fold P. rewrite Hd, Hc. cbn [negb andb].
  destruct (if sequential s && true then first_cand s (c_edge pe) else None) as [j|]; [reflexivity|].
  destruct (if sequential s then lowest_af s pe (pe_af P) None else first_af s pe (pe_af P)) as [j|]; [reflexivity|].
  destruct (endgame s).
  - cbn [fst pick_possible]. destruct (cands s (c_endgame s pe)); [contradiction|reflexivity].
  - unfold first_cand. destruct (cands s (c_unreq_has pe)) as [|x r] eqn:E; [contradiction|].
    destruct (sequential s); cbn [fst pick_possible]; [reflexivity|rewrite E; reflexivity].
Qed.

(* hence "no piece" is not an answer the picker may give in that situation *)
Corollary no_pick_is_illegal s pe i : 1 <= maxdup s ->
  let P := get_peer (peers s) pe in let p := get_piece s i in
  pe_downloading P = false -> pe_choking P = false ->
  in_range s i = true -> p_done p = false -> p_writing p = false -> In pe (p_having p) -> p_req p = [] ->
  pick_check s pe None = None.
Proof.
  intros Hm P p H1 H2 H3 H4 H5 H6 H7. unfold pick_check.
  pose proof (idle_holder_gets_a_pick s pe i Hm H1 H2 H3 H4 H5 H6 H7) as H. destruct (find_piece s pe) as [st eg]. cbn [fst] in H. rewrite H. reflexivity.
Qed.

(* with an end-game limit of 0 the statement is false: once end-game mode is on, nothing is ever picked *)
Example endgame_limit_zero_starves :
  let p := {| p_done := false; p_writing := false; p_having := [7]; p_req := []; p_snub := []; p_chok := []; p_head := false; p_tail := false |} in
  let s := {| pieces := [p]; peers := [(7, {| pe_choking := false; pe_downloading := false; pe_af := []; pe_piece := None |})];
              avail := 1; endgame := true; sequential := false; maxdup := 0 |} in
  pick_possible s (fst (find_piece s 7)) = false.
Proof. vm_compute. reflexivity. Qed.
