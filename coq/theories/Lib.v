(* Shared helpers: the integer case codec of the models, and the list facts several areas use. *)
From Coq Require Export List ZArith Lia Bool.
Export ListNotations.
Open Scope Z_scope.

(* Cases reach every model as a flat [list Z]; these readers consume a prefix and
   return the rest, [None] on malformed input (the harness never produces one; a
   model that meets one answers [-779]). *)
Definition rd1 (l : list Z) : option (Z * list Z) :=
  match l with x :: r => Some (x, r) | [] => None end.

Fixpoint rdn (n : nat) (l : list Z) : option (list Z * list Z) :=
  match n with
  | O => Some ([], l)
  | S n' => match l with
            | x :: r => match rdn n' r with
                        | Some (xs, r') => Some (x :: xs, r')
                        | None => None
                        end
            | [] => None
            end
  end.

(* length-prefixed list *)
Definition rdlist (l : list Z) : option (list Z * list Z) :=
  match l with
  | n :: r => if n <? 0 then None else rdn (Z.to_nat n) r
  | [] => None
  end.

Definition b2z (b : bool) : Z := if b then 1 else 0.
Definition z2b (z : Z) : bool := negb (z =? 0).

Definition zlen {A} (l : list A) : Z := Z.of_nat (length l).

Fixpoint znth {A} (l : list A) (i : nat) (d : A) : A :=
  match l, i with
  | x :: _, O => x
  | _ :: r, S i' => znth r i' d
  | [], _ => d
  end.

Lemma zlen_nonneg {A} (l : list A) : 0 <= zlen l.
Proof. unfold zlen; lia. Qed.

Lemma zlen_app {A} (a b : list A) : zlen (a ++ b) = zlen a + zlen b.
Proof. unfold zlen; rewrite app_length; lia. Qed.

Lemma zlen_cons {A} (x : A) l : zlen (x :: l) = 1 + zlen l.
Proof. unfold zlen; simpl length; lia. Qed.

Definition list_eqb_Z (a b : list Z) : bool :=
  (Nat.eqb (length a) (length b)) && forallb (fun p => fst p =? snd p) (combine a b).

Lemma list_eqb_Z_refl l : list_eqb_Z l l = true.
Proof.
  unfold list_eqb_Z. rewrite Nat.eqb_refl. cbn [andb].
  induction l as [|x r IH]; [reflexivity|]. cbn [combine forallb fst snd]. rewrite Z.eqb_refl. exact IH.
Qed.

Lemma list_eqb_Z_eq a : forall b, list_eqb_Z a b = true -> a = b.
Proof.
  unfold list_eqb_Z. induction a as [|x r IH]; intros [|y r'] H; cbn in H; try discriminate; [reflexivity|].
  apply andb_true_iff in H. destruct H as [H1 H2]. apply andb_true_iff in H2. destruct H2 as [H2 H3].
  apply Z.eqb_eq in H2. subst. f_equal. apply IH. rewrite H1, H3. reflexivity.
Qed.

Lemma list_eqb_Z_neq a b : a <> b -> list_eqb_Z a b = false.
Proof. intro H. destruct (list_eqb_Z a b) eqn:E; [|reflexivity]. apply list_eqb_Z_eq in E. contradiction. Qed.

Lemma skipn_skipn {A} : forall (a b : nat) (l : list A), skipn a (skipn b l) = skipn (b + a) l.
Proof.
  intros a b; revert a. induction b as [|b IH]; intros a l; [reflexivity|].
  destruct l as [|x r]; cbn [skipn plus]; [destruct a; reflexivity|apply IH].
Qed.

Lemma nth_firstn' {A} (d : A) : forall (n k : nat) (l : list A),
  nth k (firstn n l) d = if (k <? n)%nat then nth k l d else d.
Proof.
  induction n as [|n IH]; intros k l; [destruct k; reflexivity|].
  destruct l as [|x r]; [cbn [firstn]; destruct k; destruct (Nat.ltb _ _); reflexivity|].
  destruct k as [|k]; [reflexivity|]. cbn [firstn nth]. rewrite IH. reflexivity.
Qed.

Lemma nth_skipn' {A} (d : A) : forall (n k : nat) (l : list A), nth k (skipn n l) d = nth (n + k) l d.
Proof.
  induction n as [|n IH]; intros k l; [reflexivity|]. destruct l as [|x r]; [destruct k; reflexivity|].
  cbn [skipn plus nth]. apply IH.
Qed.

Lemma NoDup_app_one {A} (l : list A) x : NoDup l -> ~ In x l -> NoDup (l ++ [x]).
Proof.
  intros Hl Hx. apply NoDup_rev in Hl. rewrite <- (rev_involutive (l ++ [x])), rev_app_distr. apply NoDup_rev. cbn.
  constructor; [rewrite <- in_rev; exact Hx|exact Hl].
Qed.

Lemma NoDup_map_filter {A B} (f : A -> B) (g : A -> bool) : forall l,
  NoDup (map f l) -> NoDup (map f (filter g l)).
Proof.
  induction l as [|x r IH]; intros H; [constructor|]. cbn [map] in H. inversion H as [|? ? Hn Hr]; subst.
  cbn [filter]. destruct (g x); [|auto]. cbn [map]. constructor; [|auto].
  intros Hin. apply Hn. apply in_map_iff in Hin as (y & Hy & Hin). apply filter_In in Hin as [Hin _].
  apply in_map_iff. exists y. auto.
Qed.

(* a key without duplicates names its element *)
Lemma NoDup_map_inj {A B} (f : A -> B) l x y : NoDup (map f l) -> In x l -> In y l -> f x = f y -> x = y.
Proof.
  induction l as [|z r IH]; cbn; intros Hn Hx Hy E; [destruct Hx|]. inversion Hn as [|? ? Hz Hr]; subst.
  destruct Hx as [<-|Hx], Hy as [<-|Hy]; auto; exfalso; apply Hz; [rewrite E|rewrite <- E]; apply in_map; assumption.
Qed.

(* lists cut at a known length: what [firstn] and [skipn] give on [a ++ b] when the length of
   [a] is known (the readers of the codecs take fixed-width fields off the front of a stream) *)
Lemma firstn_app_exact {A} (a b : list A) n : length a = n -> firstn n (a ++ b) = a.
Proof. intros <-. rewrite firstn_app, Nat.sub_diag, firstn_all. apply app_nil_r. Qed.

Lemma skipn_app_exact {A} (a b : list A) n : length a = n -> skipn n (a ++ b) = b.
Proof. intros <-. rewrite skipn_app, skipn_all, Nat.sub_diag. reflexivity. Qed.

Lemma firstn_app_le {A} (a b : list A) n : (n <= length a)%nat -> firstn n (a ++ b) = firstn n a.
Proof. intro H. rewrite firstn_app. replace (n - length a)%nat with O by lia. apply app_nil_r. Qed.

Lemma skipn_app_le {A} (a b : list A) n : (n <= length a)%nat -> skipn n (a ++ b) = skipn n a ++ b.
Proof. intro H. rewrite skipn_app. replace (n - length a)%nat with O by lia. reflexivity. Qed.

(* [fs] = fields with their widths; [laid_out off fs T p]: they lie one after the other from
   offset [off] of [p], and [T] is what follows the last *)
Fixpoint laid_out {A} (off : nat) (fs : list (nat * list A)) (T p : list A) : Prop :=
  match fs with
  | [] => skipn off p = T
  | (n, x) :: r => firstn n (skipn off p) = x /\ laid_out (off + n) r T p
  end.

Lemma laid_out_app {A} (fs : list (nat * list A)) T : Forall (fun nx => length (snd nx) = fst nx) fs ->
  forall pre, laid_out (length pre) fs T (pre ++ fold_right (fun nx t => snd nx ++ t) T fs).
Proof.
  induction 1 as [|[n x] r Hx _ IH]; intro pre; cbn [laid_out fold_right fst snd] in *.
  - apply skipn_app_exact. reflexivity.
  - split.
    + rewrite (skipn_app_exact pre _ _ eq_refl). apply firstn_app_exact, Hx.
    + rewrite <- Hx, <- app_length, app_assoc. apply IH.
Qed.

Lemma Forall_skipn {A} (P : A -> Prop) n l : Forall P l -> Forall P (skipn n l).
Proof. intro H. rewrite <- (firstn_skipn n l) in H. apply Forall_app in H. apply H. Qed.

Lemma nth_Forall {A} (P : A -> Prop) l d n : Forall P l -> P d -> P (nth n l d).
Proof.
  intros Hl Hd. destruct (nth_in_or_default n l d) as [Hin| ->]; [exact (proj1 (Forall_forall _ _) Hl _ Hin)|exact Hd].
Qed.

(* what every step keeps holds after a fold of steps; [R] is what a step may assume of its operation *)
Lemma fold_left_inv_Forall {S O} (step : S -> O -> S) (Q : S -> Prop) (R : O -> Prop) :
  (forall s o, Q s -> R o -> Q (step s o)) -> forall ops, Forall R ops -> forall s, Q s -> Q (fold_left step ops s).
Proof. intros Hstep. induction 1 as [|o r Ho _ IH]; intros s H; [exact H|]. apply IH, Hstep; assumption. Qed.

Lemma fold_left_inv {S O} (step : S -> O -> S) (Q : S -> Prop) :
  (forall s o, Q s -> Q (step s o)) -> forall ops s, Q s -> Q (fold_left step ops s).
Proof. intros Hstep. induction ops as [|o r IH]; intros s H; [exact H|]. apply IH, Hstep, H. Qed.

(* the same for steps that may fail; [run] is the iteration of [step] *)
Lemma run_inv {S O} (step : S -> O -> option S) (run : S -> list O -> option S) :
  (forall s, run s [] = Some s) ->
  (forall s o r, run s (o :: r) = match step s o with Some s' => run s' r | None => None end) ->
  forall Q : S -> Prop, (forall s o s', Q s -> step s o = Some s' -> Q s') ->
  forall ops s s', Q s -> run s ops = Some s' -> Q s'.
Proof.
  intros Hnil Hcons Q Hstep. induction ops as [|o r IH]; intros s s' H0 H.
  - rewrite Hnil in H. injection H as <-. exact H0.
  - rewrite Hcons in H. destruct (step s o) as [s1|] eqn:E; [|discriminate]. exact (IH s1 s' (Hstep s o s1 H0 E) H).
Qed.
