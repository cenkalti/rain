(* One peer's messages touch only that peer's record: whatever a peer sends (valid or not), the
   handler leaves every other peer's record exactly as it was -- it neither closes them nor
   changes their downloads -- and never stops the torrent.  New downloads for idle peers are
   started afterwards by [assign], never by the handler itself.
   Both are read off [dispatch_cases] of LeechProofs. *)
From RainV Require Import Lib Leech LeechProofs.

Definition others_same (p : Z) (s s' : lst) : Prop := forall r, Z.to_nat r <> Z.to_nat p -> get_p s' r = get_p s r.

Theorem peer_message_is_local fixed s code p a b c g bits :
  code <> 9 -> others_same p s (fst (dispatch fixed s code p a b c g bits)).
Proof.
  intros H9. destruct (dispatch_cases fixed s code p a b c g bits) as [[_ H]|[[_ (d & -> & _)]|[E _]]]; [| |contradiction].
  - exact (hs_other _ _ _ H).
  - exact (hs_other _ _ _ (hstep_start_write s p a d)).
Qed.

(* ... and whatever a peer sends, the torrent is not stopped and no piece is marked or unmarked *)
Theorem peer_message_keeps_torrent_running fixed s code p a b c g bits :
  code <> 9 -> let s' := fst (dispatch fixed s code p a b c g bits) in
  s_stopped s' = s_stopped s /\ s_done s' = s_done s /\ s_completed s' = s_completed s /\ s_banned s' = s_banned s.
Proof.
  intros H9. cbn zeta.
  assert (K : forall s', frame s' = frame s -> s_stopped s' = s_stopped s /\ s_done s' = s_done s /\ s_completed s' = s_completed s /\ s_banned s' = s_banned s).
  { intros s' E. exact (conj (f_equal s_stopped E) (conj (f_equal s_done E) (conj (f_equal s_completed E) (f_equal s_banned E)))). }
  destruct (dispatch_cases fixed s code p a b c g bits) as [[E _]|[[_ (d & -> & _)]|[E _]]]; [exact (K _ E)| |contradiction].
  (* a completed piece changes the Writing flag and the write in flight, nothing else *)
  exact (K _ (frame_upd_p s p (fun q => set_dl q None))).
Qed.
