(* Peer wire: the Go writer produces the BEP framing, and the Go reader decodes every emitted
   message sequence back to itself. *)
From RainV Require Import Lib Bencode BencodeProofs Wire.

Definition u32 (x : Z) : Prop := 0 <= x < two32.

Lemma rd_be32_be32 x : u32 x ->
  rd_be32 ((x / 16777216) mod 256) ((x / 65536) mod 256) ((x / 256) mod 256) (x mod 256) = x.
Proof. unfold u32, two32, rd_be32. intros. Z.div_mod_to_equations. lia. Qed.

Lemma zlen_be32 x : zlen (be32 x) = 4.  Proof. reflexivity. Qed.

Lemma take_app (a rest : list Z) n : zlen a = n -> take n (a ++ rest) = Some (a, rest).
Proof.
  intros H. unfold take. rewrite zlen_app. pose proof (zlen_nonneg a). pose proof (zlen_nonneg rest).
  destruct ((0 <=? n) && (n <=? zlen a + zlen rest)) eqn:E; [|lia].
  subst n. unfold zlen. rewrite Nat2Z.id, (firstn_app_exact a rest _ eq_refl), (skipn_app_exact a rest _ eq_refl). reflexivity.
Qed.

Definition body_small (m : msg) : Prop := 1 + zlen (body m) < two32.

Lemma spec_len_body m : spec_len m = 1 + zlen (body m).
Proof.
  destruct m; cbn [spec_len body]; try reflexivity;
    rewrite ?zlen_app, ?zlen_be32; lia.
Qed.

Theorem enc_go_is_spec m : body_small m -> enc_go m = encode m.
Proof.
  intros H. unfold enc_go, encode. rewrite spec_len_body. f_equal. f_equal.
  unfold body_small in H. pose proof (zlen_nonneg (body m)). apply Z.mod_small. lia.
Qed.

Lemma bytes_eqb_refl a : bytes_eqb a a = true.
Proof. induction a as [|x r IH]; cbn [bytes_eqb]; [reflexivity|]. rewrite Z.eqb_refl. exact IH. Qed.

Lemma get_m_map mm : Forall (fun kv => 0 <= snd kv <= 255) mm ->
  get_m (map (fun kv : list Z * Z => (fst kv, BInt (snd kv))) mm) = Some mm.
Proof.
  induction 1 as [|[k v] r Hx Hr IH]; [reflexivity|]. cbn [map get_m fst snd] in *.
  destruct ((0 <=? v) && (v <=? 255)) eqn:E; [|lia]. rewrite IH. reflexivity.
Qed.

Definition wf_ext (m : msg) : Prop :=
  match m with
  | ExtHandshake mm v ip ms rq => Forall (fun kv => 0 <= snd kv <= 255) mm /\ 0 <= ms /\ 0 <= rq
  | ExtMetadata ty pc tot d => u32 pc
  | ExtPex _ _ => True
  | _ => False
  end.

Theorem unmarshal_ext_body m : wf_ext m -> unmarshal_ext (ext_body m) = Some m.
Proof.
  destruct m as [| | | | | | | | | | | | | |mm v ip ms rq|ty pc tot d|a dr]; cbn [wf_ext]; try tauto.
  - intros (Hm & Hms & Hrq). cbn [ext_body unmarshal_ext].
    rewrite <- (app_nil_r (enc _)), decode_encode.
    destruct (ms =? 0) eqn:Ems; destruct ip as [|i0 ip'];
      cbn [app dict_get bytes_eqb k_m k_v k_yourip k_metadata_size k_reqq Z.eqb Pos.eqb andb get_str get_int];
      rewrite get_m_map by assumption; cbn [Z.eqb]; rewrite ?Z.max_r by lia;
      try (replace ms with 0 by lia); reflexivity.
  - intros Hpc. cbn [ext_body unmarshal_ext]. rewrite decode_encode.
    destruct (tot =? 0) eqn:Et;
      cbn [app dict_get bytes_eqb k_msg_type k_piece k_total_size Z.eqb Pos.eqb andb get_int];
      (destruct ((0 <=? pc) && (pc <? two32)) eqn:E; [|unfold u32 in Hpc; lia]);
      try (replace tot with 0 by lia); reflexivity.
  - intros _. cbn [ext_body unmarshal_ext].
    rewrite <- (app_nil_r (enc _)), decode_encode.
    cbn [dict_get bytes_eqb k_added k_dropped Z.eqb Pos.eqb andb get_str]. reflexivity.
Qed.

(* a message the writer can frame and the reader will deliver: it fits the reader's limit and the
   32-bit length prefix, and its fields fit their wire widths *)
Definition wfm (maxmsg : Z) (m : msg) : Prop :=
  spec_len m - 1 <= maxmsg /\ spec_len m < two32 /\
  match m with
  | Have i | AllowedFast i => u32 i
  | Request i b l => u32 i /\ u32 b /\ 0 <= l <= 16384
  | Cancel i b l | Reject i b l => u32 i /\ u32 b /\ u32 l
  | PieceM i b d => u32 i /\ u32 b /\ zlen d <= 16384
  | Port p => 0 <= p < 65536
  | ExtHandshake _ _ _ _ _ | ExtMetadata _ _ _ _ | ExtPex _ _ => wf_ext m
  | _ => True
  end.

Lemma spec_len_pos m : 1 <= spec_len m.
Proof. rewrite spec_len_body. pose proof (zlen_nonneg (body m)). lia. Qed.

Lemma parse_step f maxmsg m rest : wfm maxmsg m ->
  parse (S f) maxmsg (encode m ++ rest) = let '(ms, e) := parse f maxmsg rest in (m :: ms, e).
Proof.
  intros (Hlen & Hl32 & Hw). pose proof (spec_len_pos m) as Hpos.
  assert (Hu : u32 (spec_len m)) by (unfold u32; lia).
  unfold encode. unfold be32 at 1. cbn [app parse].
  rewrite (rd_be32_be32 _ Hu).
  destruct (spec_len m =? 0) eqn:E0; [lia|].
  destruct (spec_len m - 1 >? maxmsg) eqn:Emax; [lia|].
  (* goals in the order of [msg]: 1-6 no payload, 7-8 one index, 9 bitfield, 10-12 request shapes,
     13 piece; once that is closed, 13 port and 14-16 the extension messages *)
  destruct m; cbn [msg_id body spec_len] in *.
  1-6: change ([] ++ rest) with rest.
  7-8: rewrite (take_app (be32 i) rest 4 eq_refl); unfold be32; rewrite rd_be32_be32 by assumption.
  9: rewrite (take_app data rest) by lia.
  10-12: destruct Hw as (Hi & Hb & Hl2); rewrite (take_app (be32 i ++ be32 b ++ be32 l) rest 12 eq_refl);
    unfold be32; cbn [app]; rewrite !rd_be32_be32 by (assumption || (unfold u32, two32; lia)).
  10: destruct (l >? 16384) eqn:El; [lia|].
  13: { destruct Hw as (Hi & Hb & Hd). rewrite <- !app_assoc, (app_assoc (be32 i)).
    rewrite (take_app (be32 i ++ be32 b) (data ++ rest) 8 eq_refl). unfold be32. cbn [app].
    pose proof (zlen_nonneg data).
    replace ((9 + zlen data - 1 - 8) mod two32) with (zlen data) by (unfold two32; Z.div_mod_to_equations; lia).
    destruct (zlen data >? 16384) eqn:El; [lia|].
    rewrite (take_app data rest (zlen data) eq_refl), !rd_be32_be32 by assumption.
    destruct (parse f maxmsg rest); reflexivity. }
  13: rewrite (take_app (be16 p) rest 2 eq_refl); unfold be16;
    replace (p / 256 mod 256 * 256 + p mod 256) with p by (Z.div_mod_to_equations; lia).
  14-16: rewrite (take_app (ext_body _) rest) by lia; rewrite unmarshal_ext_body by assumption.
  all: destruct (parse f maxmsg rest); reflexivity.
Qed.

Lemma parse_msgs maxmsg : forall ms fuel, Forall (wfm maxmsg) ms -> (length ms < fuel)%nat ->
  parse fuel maxmsg (flat_map encode ms) = (ms, EndEOF).
Proof.
  induction ms as [|m r IH]; intros fuel Hw Hf.
  - destruct fuel; [lia|]. reflexivity.
  - inversion Hw as [|? ? Hm Hr]; subst. destruct fuel as [|f]; [cbn in Hf; lia|].
    cbn [flat_map]. rewrite parse_step by assumption. rewrite IH by (auto; cbn in Hf; lia). reflexivity.
Qed.

(* every message takes at least one byte (five, with its length prefix) *)
Lemma flat_encode_len ms : (length ms <= length (flat_map encode ms))%nat.
Proof.
  induction ms as [|m r IH]; [cbn; lia|]. cbn [flat_map length]. rewrite app_length.
  unfold encode at 1, be32. cbn [app length]. lia.
Qed.

(* Every sequence of emitted messages is decoded back to itself by the client's own reader
   (on the whole stream; independence from the chunking is io.ReadFull/bufio's contract). *)
Theorem reader_inverts_writer maxmsg ms : Forall (wfm maxmsg) ms ->
  parse_all maxmsg (flat_map encode ms) = (ms, EndEOF).
Proof.
  intros Hw. unfold parse_all. apply parse_msgs; [exact Hw|]. pose proof (flat_encode_len ms). lia.
Qed.

(* keep-alives between messages are skipped *)
Lemma parse_keepalive f maxmsg rest : parse (S f) maxmsg (keepalive ++ rest) = parse f maxmsg rest.
Proof. reflexivity. Qed.

Theorem handshake_roundtrip ext ih id rest : length ext = 8%nat -> length ih = 20%nat -> length id = 20%nat ->
  rd_handshake (handshake ext ih id ++ rest) = Some (ext, ih, id, rest).
Proof.
  intros He Hi Hd.
  assert (H : laid_out 0 [(20, pstr); (8, ext); (20, ih); (20, id)]%nat rest (handshake ext ih id ++ rest)).
  { unfold handshake. rewrite <- !app_assoc. refine (laid_out_app _ _ _ []). repeat constructor; assumption. }
  assert (L : (68 <=? zlen (handshake ext ih id ++ rest)) = true).
  { apply Z.leb_le. unfold zlen, handshake. rewrite !app_length, He, Hi, Hd. cbn [length pstr]. lia. }
  cbv [laid_out Nat.add] in H. change (skipn 0 ?s) with s in H. destruct H as (H1 & H2 & H3 & H4 & H5).
  unfold rd_handshake. rewrite H1, H2, H3, H4, H5, L. reflexivity.
Qed.

(* upload counter: BlockUploaded lengths = payload bytes of the piece messages written *)
Definition wire_payload (m : msg) : Z := match m with PieceM _ _ d => zlen (encode m) - 13 | _ => 0 end.
Theorem upload_counter m : uploaded_of m = wire_payload m.
Proof.
  destruct m; try reflexivity. unfold uploaded_of, wire_payload, encode.
  rewrite zlen_app, zlen_be32, zlen_cons. cbn [body]. rewrite !zlen_app, !zlen_be32. lia.
Qed.

Example wfm_example : wfm 1000 (ExtMetadata 1 3 40000 [1;2;3]) /\ wfm 1000 (Request 1 2 16384).
Proof.
  split; (split; [vm_compute; discriminate|split; [vm_compute; reflexivity|]]).
  - unfold wf_ext, u32, two32. lia.
  - unfold u32, two32. lia.
Qed.

(* the writer's queue: once a choke is queued no piece that was waiting is sent any more, whatever was
   queued; and the number of waiting pieces never exceeds the configured bound *)
Lemma choke_flushes_queued_pieces maxq fast q : existsb is_piece (wq_op maxq fast q Choke) = false.
Proof.
  cbn [wq_op]. rewrite existsb_app. cbn. rewrite orb_false_r.
  induction q as [|m r IH]; [reflexivity|]. cbn [filter]. destruct (is_piece m) eqn:E; cbn [negb]; [exact IH|].
  cbn [existsb]. rewrite E. exact IH.
Qed.

Lemma remove_first_piece_count i b l q : count_pieces (remove_first_piece i b l q) <= count_pieces q.
Proof.
  unfold count_pieces. induction q as [|m r IH]; [cbn; lia|].
  destruct m; cbn [remove_first_piece filter is_piece]; try exact IH.
  destruct ((i0 =? i) && (b0 =? b) && (zlen data =? l)); cbn [filter is_piece]; rewrite ?zlen_cons; lia.
Qed.

Lemma filter_none {A} (p : A -> bool) l : existsb p l = false -> filter p l = [].
Proof. induction l as [|x r IH]; [reflexivity|]. cbn [existsb filter]. destruct (p x); [discriminate|exact IH]. Qed.

Lemma count_pieces_app a b : count_pieces (a ++ b) = count_pieces a + count_pieces b.
Proof. unfold count_pieces. rewrite filter_app, zlen_app. reflexivity. Qed.

Lemma wq_op_bounded maxq fast q m : 0 <= maxq -> count_pieces q <= maxq -> count_pieces (wq_op maxq fast q m) <= maxq.
Proof.
  intros Hq H. destruct m; cbn [wq_op]; try (rewrite count_pieces_app; cbn; lia).
  - (* choke *) pose proof (choke_flushes_queued_pieces maxq fast q) as F. apply filter_none in F.
    cbn [wq_op] in F. unfold count_pieces. rewrite F. exact Hq.
  - (* cancel *) pose proof (remove_first_piece_count i b l q). lia.
  - (* piece *) destruct (Z.leb_spec maxq (count_pieces q)) as [E|E]; [destruct fast; [|lia]|];
      rewrite count_pieces_app; unfold count_pieces at 2; cbn; lia.
Qed.

Theorem writer_queue_bounded maxq fast ms : 0 <= maxq -> count_pieces (fold_left (wq_op maxq fast) ms []) <= maxq.
Proof.
  intro Hq. apply (fold_left_inv _ (fun q => count_pieces q <= maxq)); [intros q m; apply wq_op_bounded, Hq|].
  unfold count_pieces. cbn. lia.
Qed.
