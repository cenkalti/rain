(* addrlist as a bounded set keyed by priority: invariants over every operation sequence. *)
From RainV Require Import Lib AddrList.
From Coq Require Import Permutation.

Definition prios (l : list entry) : list Z := map e_prio l.

Lemma replace_prio_prios l e : prios (fst (replace_prio l e)) = prios l.
Proof.
  induction l as [|x r IH]; cbn [replace_prio]; [reflexivity|].
  destruct (e_prio x =? e_prio e) eqn:E; cbn [fst prios map].
  - f_equal. lia.
  - destruct (replace_prio r e) as [r' o]. cbn [fst prios map] in *. f_equal. exact IH.
Qed.

Lemma replace_prio_none l e : snd (replace_prio l e) = None <-> ~ In (e_prio e) (prios l).
Proof.
  induction l as [|x r IH]; cbn [replace_prio prios map In snd]; [tauto|].
  destruct (e_prio x =? e_prio e) eqn:E; cbn [snd].
  - split; [discriminate|]. intros H. exfalso. apply H. left. lia.
  - destruct (replace_prio r e) as [r' o]. cbn [snd] in *. rewrite IH. split; [intros H [Hx|Hx]; [lia|tauto]|tauto].
Qed.

Lemma replace_prio_in l e x : In x (fst (replace_prio l e)) -> x = e \/ In x l.
Proof.
  induction l as [|y r IH]; cbn [replace_prio fst]; [tauto|].
  destruct (e_prio y =? e_prio e); cbn [fst In].
  - intros [<-|H]; auto.
  - destruct (replace_prio r e) as [r' o]. cbn [fst In] in *. intros [<-|H]; [auto|]. destruct (IH H); auto.
Qed.

Definition P_all (P : entry -> Prop) (l : list entry) : Prop := Forall P l.

(* [P] is instantiated with [unfiltered c] in [push_inv] *)
Lemma add_one_inv (P : entry -> Prop) st e :
  NoDup (prios (fst st)) /\ Forall P (fst st) -> P e ->
  NoDup (prios (fst (add_one st e))) /\ Forall P (fst (add_one st e)).
Proof.
  destruct st as [l cs]. cbn [fst]. intros [Hnd HP] He. unfold add_one.
  pose proof (replace_prio_prios l e) as Hp. pose proof (replace_prio_none l e) as Hn.
  pose proof (replace_prio_in l e) as Hi.
  destruct (replace_prio l e) as [l1 [prev|]]; cbn [fst snd] in *.
  - split; [rewrite Hp; assumption|]. apply Forall_forall. intros x Hx.
    destruct (Hi _ Hx) as [->|Hx']; [assumption|]. rewrite Forall_forall in HP. auto.
  - split.
    + unfold prios. rewrite map_app. cbn [map]. apply NoDup_app_one; [assumption|]. apply Hn. reflexivity.
    + apply Forall_app. split; [assumption|constructor; [assumption|constructor]].
Qed.

Lemma fold_add_one_inv (P : entry -> Prop) es : Forall P es -> forall st,
  NoDup (prios (fst st)) /\ Forall P (fst st) ->
  NoDup (prios (fst (fold_left add_one es st))) /\ Forall P (fst (fold_left add_one es st)).
Proof. induction 1 as [|e r He Hr IH]; intros st H; cbn [fold_left]; [exact H|]. apply IH, add_one_inv; assumption. Qed.

Lemma resort_perm now l : Permutation l (resort now l).
Proof.
  unfold resort. induction l as [|x r IH]; [constructor|]. cbn [filter].
  destruct (e_time x <? now); cbn [negb app].
  - constructor. exact IH.
  - eapply Permutation_trans; [constructor; exact IH|]. apply Permutation_middle.
Qed.

Lemma evict_items : forall n l cs, fst (evict n l cs) = skipn n l.
Proof. induction n as [|n IH]; intros [|e r] cs; cbn [evict skipn]; auto. Qed.

Lemma NoDup_skipn {A} k (l : list A) : NoDup l -> NoDup (skipn k l).
Proof.
  revert l; induction k as [|k IH]; intros l H; [exact H|]. destruct l; [constructor|].
  inversion H; subst. cbn [skipn]. auto.
Qed.

Definition unfiltered (c : cfg) (e : entry) : Prop := filtered c (e_ip e) (e_port e) = false.

Record Inv (c : cfg) (s : alist) : Prop := {
  inv_nodup : NoDup (prios (items s));
  inv_filter : Forall (unfiltered c) (items s)
}.

(* the entries a push adds: the addresses that pass the filter, stamped with the push's time *)
Definition new_entries (c : cfg) (src now : Z) (addrs : list (Z * Z * Z)) : list entry :=
  flat_map (fun a : Z * Z * Z => let '(ip, port, prio) := a in
              if filtered c ip port then []
              else [{| e_ip := ip; e_port := port; e_src := src; e_prio := prio; e_time := now |}]) addrs.

Lemma new_entries_unfiltered c src now addrs : Forall (unfiltered c) (new_entries c src now addrs).
Proof.
  unfold new_entries. induction addrs as [|[[ip port] prio] r IH]; [constructor|]. cbn [flat_map].
  destruct (filtered c ip port) eqn:E; cbn [app]; [assumption|]. constructor; [exact E|assumption].
Qed.

(* the items after a push: the new entries merged in by priority, re-sorted, the surplus over
   maxItems dropped from the old end *)
Lemma push_items c s src addrs :
  let l2 := resort (clock s + 1) (fst (fold_left add_one (new_entries c src (clock s + 1) addrs) (items s, counts s))) in
  items (push c s src addrs) = skipn (Z.to_nat (zlen l2 - maxItems c)) l2.
Proof.
  unfold push. fold (new_entries c src (clock s + 1) addrs).
  destruct (fold_left add_one _ _) as [l1 cs1]. cbn [fst].
  set (l2 := resort (clock s + 1) l1). destruct (zlen l2 - maxItems c >? 0) eqn:E.
  - rewrite <- (evict_items _ l2 (bump cs1 (Z.to_nat src) (zlen (new_entries c src (clock s + 1) addrs)))).
    destruct (evict _ _ _). reflexivity.
  - replace (Z.to_nat (zlen l2 - maxItems c)) with 0%nat by lia. reflexivity.
Qed.

(* every push keeps priorities unique and the filter exact *)
Theorem push_inv c s src addrs : Inv c s -> Inv c (push c s src addrs).
Proof.
  intros [Hnd Hf].
  destruct (fold_add_one_inv _ _ (new_entries_unfiltered c src (clock s + 1) addrs) (items s, counts s) (conj Hnd Hf)) as [H1 H2].
  constructor; rewrite push_items; cbv zeta.
  - unfold prios. rewrite <- skipn_map. apply NoDup_skipn.
    eapply Permutation_NoDup; [apply Permutation_map, resort_perm|exact H1].
  - apply Forall_skipn, (Permutation_Forall (resort_perm _ _)), H2.
Qed.

Theorem push_bounded c s src addrs : 0 <= maxItems c -> zlen (items (push c s src addrs)) <= maxItems c.
Proof. intros Hm. rewrite push_items. cbv zeta. unfold zlen. rewrite skipn_length. lia. Qed.

Lemma max_prio_some : forall l b e, max_prio l (Some b) = Some e ->
  In e (b :: l) /\ forall x, In x (b :: l) -> e_prio x <= e_prio e.
Proof.
  induction l as [|x r IH]; intros b e H; cbn [max_prio] in H.
  - inversion H; subst. split; [left; reflexivity|]. intros x [<-|[]]. lia.
  - destruct (e_prio b <? e_prio x) eqn:E; apply IH in H as [H1 H2];
      pose proof (H2 _ (or_introl eq_refl)); cbn [In] in *.
    + split; [tauto|]. intros y [<-|Hy]; [lia|auto].
    + split; [tauto|]. intros y [<-|[<-|Hy]]; [auto|lia|auto].
Qed.

Lemma max_prio_spec l e : max_prio l None = Some e ->
  In e l /\ forall x, In x l -> e_prio x <= e_prio e.
Proof. destruct l as [|b r]; [discriminate|]. apply max_prio_some. Qed.

Lemma remove_prio_spec : forall l p, NoDup (prios l) ->
  forall x, In x (remove_prio l p) <-> In x l /\ e_prio x <> p.
Proof.
  induction l as [|y r IH]; intros p Hnd x; cbn [remove_prio]; [cbn; tauto|].
  cbn [prios map] in Hnd. inversion Hnd as [|? ? Hny Hr]; subst.
  destruct (e_prio y =? p) eqn:E; cbn [In].
  - split; [|intros [[<-|Hx] Hp]; [lia|exact Hx]].
    intros Hx. split; [right; exact Hx|]. intros Hp. apply Hny, in_map_iff. exists x. split; [lia|exact Hx].
  - rewrite (IH p Hr). split; [intros [<-|[Hx Hp]]; [split; [tauto|lia]|tauto]|tauto].
Qed.

Lemma remove_prio_nodup : forall l p, NoDup (prios l) -> NoDup (prios (remove_prio l p)).
Proof.
  induction l as [|y r IH]; intros p Hnd; [constructor|]. cbn [remove_prio prios map] in *.
  inversion Hnd as [|? ? Hny Hr]; subst. destruct (e_prio y =? p); [exact Hr|].
  cbn [prios map]. constructor; [|apply IH; exact Hr].
  intros Hin. apply Hny. apply in_map_iff in Hin as (x & Hx & Hin). apply in_map_iff. exists x. split; [exact Hx|].
  apply (remove_prio_spec r p Hr x). exact Hin.
Qed.

(* pop returns an entry of maximal priority and removes exactly it *)
Theorem pop_spec c s s' e : Inv c s -> pop s = (s', Some e) ->
  In e (items s) /\ (forall x, In x (items s) -> e_prio x <= e_prio e) /\
  (forall x, In x (items s') <-> In x (items s) /\ x <> e) /\ unfiltered c e.
Proof.
  intros [Hnd Hf] H. unfold pop in H. destruct (max_prio (items s) None) as [m|] eqn:E; [|discriminate].
  inversion H; subst. cbn [items]. destruct (max_prio_spec _ _ E) as (H1 & H2).
  split; [exact H1|]. split; [exact H2|]. split.
  - intros x. rewrite (remove_prio_spec _ _ Hnd). split; [intros [Hx Hp]; split; [exact Hx|congruence]|].
    intros [Hx Hne]. split; [exact Hx|]. intros Hp. apply Hne, (NoDup_map_inj e_prio _ _ _ Hnd Hx H1 Hp).
  - rewrite Forall_forall in Hf. apply Hf. exact H1.
Qed.

Theorem pop_inv c s : Inv c s -> Inv c (fst (pop s)).
Proof.
  intros [Hnd Hf]. unfold pop. destruct (max_prio (items s) None) as [m|]; cbn [fst]; [|constructor; assumption].
  constructor; cbn [items]; [apply remove_prio_nodup, Hnd|].
  apply Forall_forall. intros x Hx. rewrite Forall_forall in Hf. apply Hf.
  apply (remove_prio_spec (items s) (e_prio m) Hnd x). exact Hx.
Qed.

Lemma reset_inv c s : Inv c (reset s).
Proof. constructor; cbn; constructor. Qed.

Lemma init_inv c : Inv c al_init.
Proof. constructor; cbn; constructor. Qed.

(* all reachable states: any sequence of push / pop / reset *)
Inductive aop := APush (src : Z) (addrs : list (Z * Z * Z)) | APop | AReset.
Definition astep (c : cfg) (s : alist) (o : aop) : alist :=
  match o with APush src a => push c s src a | APop => fst (pop s) | AReset => reset s end.

Theorem reachable_inv c ops : Inv c (fold_left (astep c) ops al_init).
Proof.
  apply fold_left_inv; [|apply init_inv]. intros s o Hs.
  destruct o; cbn [astep]; [apply push_inv|apply pop_inv|apply reset_inv]; assumption.
Qed.

(* hence nothing filtered is ever handed out for dialling: port 0, the client's own loopback
   address, its external IP, or a blocked address *)
Corollary popped_never_filtered c ops s' e :
  pop (fold_left (astep c) ops al_init) = (s', Some e) -> filtered c (e_ip e) (e_port e) = false.
Proof. intros H. eapply pop_spec in H; [|apply reachable_inv]. tauto. Qed.

Example al_example : zlen (items (push {| maxItems := 2; listenPort := 6881; clientIP := None; blockRanges := None |}
  al_init 0 [(16909060, 1, 30); (16909061, 0, 20); (16909062, 5, 10); (16909063, 5, 40)])) = 2.
Proof. vm_compute. reflexivity. Qed.
