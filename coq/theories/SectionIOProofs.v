(* Write-then-read round trip of filesection.Piece over abstract storage. *)
From RainV Require Import Lib Geometry SectionIO PiecesProofs.
From Coq Require Import ZifyBool.

Lemma skipn_repeat {A} (x : A) : forall k m, skipn k (repeat x m) = repeat x (m - k).
Proof.
  induction k as [|k IH]; intros m; [rewrite Nat.sub_0_r; reflexivity|].
  destruct m as [|m]; [reflexivity|]. cbn [repeat skipn]. apply IH.
Qed.

Lemma slice_len (l : list Z) (off len : Z) : 0 <= off -> 0 <= len -> off + len <= zlen l ->
  zlen (slice l off len) = len.
Proof.
  intros Ho Hl Hb. unfold slice, zlen in *. rewrite firstn_length, skipn_length. lia.
Qed.

Lemma skipn_slice c b len a : 0 <= a -> 0 <= b ->
  skipn (Z.to_nat a) (slice c b len) = slice c (b + a) (len - a).
Proof.
  intros Ha Hb. unfold slice. rewrite skipn_firstn_comm, skipn_skipn. f_equal; [lia|f_equal; lia].
Qed.

Definition sec_wf (st : storage) (s : section) : Prop :=
  0 <= slen s /\ 0 <= soff s /\
  (spad s = false -> soff s + slen s <= zlen (file_of st (sfile s)) /\ (sfile s < length st)%nat).

Definition secs_wf (st : storage) (p : list section) : Prop := Forall (sec_wf st) p.

Lemma secs_wf_nonneg st p : secs_wf st p -> Forall (fun s => 0 <= slen s) p.
Proof. apply Forall_impl. intros s [H _]. exact H. Qed.

Lemma sec_bytes_len st s adv : sec_wf st s -> 0 <= adv <= slen s ->
  zlen (sec_bytes st s adv) = slen s - adv.
Proof.
  intros (Hl & Ho & Hf) Ha. unfold sec_bytes. destruct (spad s) eqn:Ep.
  - unfold zlen. rewrite repeat_length. lia.
  - destruct (Hf eq_refl) as [Hb _]. apply slice_len; lia.
Qed.

Lemma sec_bytes_skip st s adv : 0 <= adv -> 0 <= soff s ->
  skipn (Z.to_nat adv) (sec_bytes st s 0) = sec_bytes st s adv.
Proof.
  intros Ha Ho. unfold sec_bytes. destruct (spad s).
  - rewrite skipn_repeat. f_equal. lia.
  - rewrite skipn_slice by lia. f_equal; lia.
Qed.

Lemma content_cons st s r : content st (s :: r) = sec_bytes st s 0 ++ content st r.
Proof. reflexivity. Qed.

Lemma content_app st a b : content st (a ++ b) = content st a ++ content st b.
Proof. unfold content. apply flat_map_app. Qed.

Lemma content_len st p : secs_wf st p -> zlen (content st p) = sum_slen p.
Proof.
  induction 1 as [|s r Hs Hr IH]; [reflexivity|].
  rewrite content_cons, zlen_app, IH, sec_bytes_len, sum_slen_cons by (auto; destruct Hs; lia). lia.
Qed.

(* Dropping the bytes of the sections [pre] and [adv] more leaves the rest of section [s] and
   what follows it: the stream ReadAt builds. *)
Lemma content_skip st pre s r adv : secs_wf st pre -> sec_wf st s -> 0 <= adv <= slen s ->
  skipn (Z.to_nat (sum_slen pre + adv)) (content st (pre ++ s :: r)) =
  sec_bytes st s adv ++ content st r.
Proof.
  intros Hpre Hs Ha. pose proof (content_len st pre Hpre) as Hlp. unfold zlen in Hlp.
  pose proof (sec_bytes_len st s 0 Hs ltac:(lia)) as Hl0. unfold zlen in Hl0.
  replace (Z.to_nat (sum_slen pre + adv)) with (length (content st pre) + Z.to_nat adv)%nat by lia.
  rewrite <- skipn_skipn, content_app, (skipn_app_exact _ _ _ eq_refl), content_cons, skipn_app_le by lia.
  rewrite sec_bytes_skip by (destruct Hs; lia). reflexivity.
Qed.

Lemma skip_loop_spec : forall p pos off, pos <= off -> off <= pos + sum_slen p -> p <> [] ->
  exists pre s r, skip_loop p pos off = Some (s, pos + sum_slen pre + slen s, r) /\
    p = pre ++ s :: r /\ pos + sum_slen pre <= off <= pos + sum_slen pre + slen s.
Proof.
  induction p as [|s r IH]; intros pos off Hle Hhi Hne; [congruence|].
  cbn [skip_loop]. rewrite sum_slen_cons in Hhi.
  destruct (pos + slen s >=? off) eqn:E.
  - exists [], s, r. cbn [sum_slen fold_right app]. rewrite Z.add_0_r. repeat split; lia.
  - assert (Hr0 : r <> []).
    { intros ->. cbn in Hhi. lia. }
    destruct (IH (pos + slen s) off) as (pre & s' & r' & E1 & E2 & E3); [lia|lia|assumption|].
    exists (s :: pre), s', r'. rewrite E1, E2, sum_slen_cons. cbn [app].
    split; [f_equal; f_equal; f_equal; lia|]. split; [reflexivity|lia].
Qed.

(* The sections ReadAt leaves out lie beyond the bytes it was asked for. *)
Lemma rest_loop_firstn st : forall r pos lim, secs_wf st r ->
  firstn (Z.to_nat (lim - pos)) (content st (rest_loop r pos lim)) =
  firstn (Z.to_nat (lim - pos)) (content st r).
Proof.
  induction r as [|s r IH]; intros pos lim Hwf; [reflexivity|].
  inversion Hwf as [|? ? Hs Hr]; subst. cbn [rest_loop]. rewrite !content_cons.
  pose proof (sec_bytes_len st s 0 Hs) as Hl. destruct Hs as (Hs0 & _).
  specialize (Hl ltac:(lia)). unfold zlen in Hl.
  rewrite !firstn_app. f_equal. destruct (pos + slen s >=? lim) eqn:E.
  - replace (Z.to_nat (lim - pos) - length (sec_bytes st s 0))%nat with O by lia. reflexivity.
  - replace (Z.to_nat (lim - pos) - length (sec_bytes st s 0))%nat
      with (Z.to_nat (lim - (pos + slen s))) by lia.
    apply IH. assumption.
Qed.

Theorem read_at_content st p off n : secs_wf st p -> p <> [] ->
  0 <= off <= sum_slen p -> 0 <= n ->
  exists e, read_at st p off n = Ok (slice (content st p) off n, e) /\
            (off + n <= sum_slen p -> e = 0).
Proof.
  intros Hwf Hne Ho Hn. unfold read_at.
  destruct (skip_loop_spec p 0 off) as (pre & s & r & E1 & E2 & E3); [lia|lia|assumption|].
  rewrite E1. cbv zeta.
  match goal with |- context [firstn (Z.to_nat n) ?str] => set (got := firstn (Z.to_nat n) str) end.
  assert (Hgot : got = slice (content st p) off n).
  { unfold got, slice. rewrite E2 in Hwf |- *.
    apply Forall_app in Hwf as [Hpre Hsr]. inversion Hsr as [|? ? Hs Hr]; subst.
    set (adv := slen s - (0 + sum_slen pre + slen s - off)).
    replace (Z.to_nat off) with (Z.to_nat (sum_slen pre + adv)) by (unfold adv; lia).
    rewrite content_skip by (assumption || unfold adv; lia).
    pose proof (sec_bytes_len st s adv Hs ltac:(unfold adv; lia)) as Hl. unfold zlen in Hl.
    rewrite !firstn_app. f_equal.
    replace (Z.to_nat n - length (sec_bytes st s adv))%nat
      with (Z.to_nat (off + n - (0 + sum_slen pre + slen s))) by (unfold adv in *; lia).
    apply rest_loop_firstn. assumption. }
  rewrite Hgot. eexists; split; [reflexivity|].
  intros Hin. pose proof (content_len st p Hwf) as Hc.
  assert (zlen (slice (content st p) off n) = n) by (apply slice_len; lia).
  destruct (zlen (slice (content st p) off n) <? n) eqn:E; lia.
Qed.

Lemma set_nth_length {A} : forall (l : list A) i x, length (set_nth l i x) = length l.
Proof. induction l as [|y r IH]; intros [|i] x; cbn [set_nth length]; auto. Qed.

Lemma nth_set_nth_same {A} : forall (l : list A) i x d, (i < length l)%nat -> nth i (set_nth l i x) d = x.
Proof.
  induction l as [|y r IH]; intros [|i] x d H; cbn [length] in H; try lia; cbn [set_nth nth]; auto.
  apply IH. lia.
Qed.

Lemma nth_set_nth_other {A} : forall (l : list A) i j x d, i <> j -> nth j (set_nth l i x) d = nth j l d.
Proof.
  induction l as [|y r IH]; intros [|i] [|j] x d H; cbn [set_nth nth]; auto; congruence.
Qed.

Lemma write_file_len c off b : 0 <= off -> off + zlen b <= zlen c ->
  zlen (write_file c off b) = zlen c.
Proof.
  intros Ho Hb. unfold write_file, zlen in *. rewrite !app_length, firstn_length, skipn_length. lia.
Qed.

Lemma slice_write_file c off b : 0 <= off -> off + zlen b <= zlen c ->
  slice (write_file c off b) off (zlen b) = b.
Proof.
  intros Ho Hb. unfold slice, write_file, zlen in *.
  rewrite skipn_app_exact by (rewrite firstn_length; lia). apply firstn_app_exact. lia.
Qed.

(* [secs_wf] looks at a storage only through the number of files and their lengths, and a write
   changes neither. *)
Definition same_shape (st st' : storage) : Prop :=
  length st' = length st /\ forall i, zlen (file_of st' i) = zlen (file_of st i).

Lemma secs_wf_shape st st' p : same_shape st st' -> secs_wf st p -> secs_wf st' p.
Proof.
  intros [Hl Hz]. apply Forall_impl. intros s (H1 & H2 & H3).
  split; [assumption|split; [assumption|]]. rewrite Hz, Hl. exact H3.
Qed.

Lemma same_shape_set st i c : (i < length st)%nat -> zlen c = zlen (file_of st i) ->
  same_shape st (set_nth st i c).
Proof.
  intros Hi Hc. split; [apply set_nth_length|]. intros j. unfold file_of in *.
  destruct (Nat.eq_dec i j) as [<-|Hne].
  - rewrite nth_set_nth_same by assumption. exact Hc.
  - rewrite nth_set_nth_other by assumption. reflexivity.
Qed.

Definition nonpad_files (p : list section) : list nat :=
  map sfile (filter (fun s => negb (spad s)) p).

Lemma nonpad_files_cons s r :
  nonpad_files (s :: r) = if spad s then nonpad_files r else sfile s :: nonpad_files r.
Proof. unfold nonpad_files. cbn [filter]. destruct (spad s); reflexivity. Qed.

Lemma content_indep st st' p : (forall i, In i (nonpad_files p) -> file_of st' i = file_of st i) ->
  content st' p = content st p.
Proof.
  induction p as [|s r IH]; intros H; [reflexivity|].
  rewrite !content_cons, nonpad_files_cons in *. unfold sec_bytes.
  destruct (spad s); [rewrite IH by exact H; reflexivity|].
  rewrite H by (left; reflexivity). rewrite IH; [reflexivity|]. intros i Hi. apply H. right. exact Hi.
Qed.

Theorem write_then_content : forall p st buf, secs_wf st p -> NoDup (nonpad_files p) ->
  sum_slen p <= zlen buf ->
  exists st', write_secs st p buf = Ok st' /\ content st' p = mask p buf /\ same_shape st st' /\
    (forall i, ~ In i (nonpad_files p) -> file_of st' i = file_of st i).
Proof.
  induction p as [|s r IH]; intros st buf Hwf Hnd Hlen.
  - exists st. repeat split; reflexivity.
  - inversion Hwf as [|? ? Hs Hr]; subst. destruct Hs as (Hs0 & Hso & Hsf).
    rewrite sum_slen_cons in Hlen. pose proof (sum_slen_nonneg r (secs_wf_nonneg st r Hr)) as Hrn.
    assert (Hsk : sum_slen r <= zlen (skipn (Z.to_nat (slen s)) buf)).
    { unfold zlen in *. rewrite skipn_length. lia. }
    cbn [write_secs mask]. destruct (zlen buf <? slen s) eqn:E; [lia|].
    rewrite nonpad_files_cons in *. destruct (spad s) eqn:Ep.
    + destruct (IH st _ Hr Hnd Hsk) as (st' & E1 & E2 & E3 & E4).
      exists st'. rewrite E1, content_cons, E2. unfold sec_bytes. rewrite Ep, Z.sub_0_r. auto.
    + inversion Hnd as [|? ? Hnotin Hnd']; subst. destruct (Hsf eq_refl) as [Hb Hidx].
      set (b := firstn (Z.to_nat (slen s)) buf).
      assert (Hbl : zlen b = slen s) by (unfold b, zlen in *; rewrite firstn_length; lia).
      set (c := write_file (file_of st (sfile s)) (soff s) b).
      pose proof (same_shape_set st (sfile s) c Hidx ltac:(apply write_file_len; lia)) as Hsh.
      set (st1 := set_nth st (sfile s) c) in *.
      destruct (IH st1 _ (secs_wf_shape _ _ _ Hsh Hr) Hnd' Hsk) as (st' & E1 & E2 & E3 & E4).
      exists st'. rewrite E1, content_cons. split; [reflexivity|]. split; [|split].
      * rewrite E2. unfold sec_bytes. rewrite Ep, E4 by exact Hnotin. f_equal.
        unfold st1, file_of. rewrite nth_set_nth_same by assumption.
        rewrite Z.add_0_r, Z.sub_0_r, <- Hbl. apply slice_write_file; lia.
      * destruct Hsh as [Hl1 Hz1], E3 as [Hl2 Hz2]. split; [congruence|].
        intros i. rewrite Hz2. apply Hz1.
      * intros i Hi. rewrite E4 by (intros Hc; apply Hi; right; exact Hc).
        unfold st1, file_of. apply nth_set_nth_other. intros <-. apply Hi. left. reflexivity.
Qed.

(* Writing a piece and reading any sub-range of it back returns the same bytes; padding
   reads as zeros and is never written. *)
Theorem write_read_roundtrip st p buf off n :
  secs_wf st p -> p <> [] -> NoDup (nonpad_files p) -> zlen buf = sum_slen p ->
  0 <= off -> 0 <= n -> off + n <= sum_slen p ->
  exists st', write_secs st p buf = Ok st' /\
    read_at st' p off n = Ok (slice (mask p buf) off n, 0) /\
    (forall i, ~ In i (nonpad_files p) -> file_of st' i = file_of st i).
Proof.
  intros Hwf Hne Hnd Hlen Ho Hn Hin.
  destruct (write_then_content p st buf Hwf Hnd) as (st' & E1 & E2 & E3 & E4); [lia|].
  exists st'. split; [assumption|]. split; [|assumption].
  destruct (read_at_content st' p off n (secs_wf_shape _ _ _ E3 Hwf) Hne) as (e & Er & He); [lia|lia|].
  rewrite Er, E2, (He Hin). reflexivity.
Qed.

(* reading beyond the piece is the Go panic (index out of range on the section list) *)
Theorem read_at_beyond_crashes : forall p pos off, Forall (fun s => 0 <= slen s) p ->
  pos + sum_slen p < off -> skip_loop p pos off = None.
Proof.
  induction p as [|s r IH]; intros pos off Hwf H; [reflexivity|].
  inversion Hwf; subst. cbn [skip_loop]. rewrite sum_slen_cons in H.
  pose proof (sum_slen_nonneg r ltac:(assumption)).
  destruct (pos + slen s >=? off) eqn:E; [lia|]. apply IH; [assumption|lia].
Qed.
