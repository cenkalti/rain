(* Whatever bytes a peer sends, every message the reader model delivers respects the size bounds:
   a bitfield has at most maxMsgSize bytes, a piece message at most 16 KiB of data, a request asks
   for at most 16 KiB.  (The model rejects a length prefix above maxMsgSize before reading -- and
   the Go reader before allocating -- anything of that message.) *)
From RainV Require Import Lib Bencode Wire.

Definition rwf (maxmsg : Z) (m : msg) : Prop :=
  match m with
  | Bitfield d => zlen d <= maxmsg
  | PieceM _ _ d => zlen d <= 16384
  | Request _ _ l => l <= 16384
  | _ => True
  end.

Lemma take_len n s p r : take n s = Some (p, r) -> zlen p = n.
Proof.
  unfold take. destruct ((0 <=? n) && (n <=? zlen s)) eqn:E; [|discriminate]. intros H; inversion H; subst.
  unfold zlen in *. rewrite firstn_length. lia.
Qed.

Lemma unmarshal_ext_rwf maxmsg p m : unmarshal_ext p = Some m -> rwf maxmsg m.
Proof.
  unfold unmarshal_ext. destruct p as [|extid payload]; [discriminate|].
  destruct (decode payload) as [[[| | |d] rest]|]; try discriminate.
  destruct (extid =? 0).
  { destruct (match dict_get k_m d with None => Some [] | Some (BDict md) => get_m md | Some _ => None end); [|discriminate].
    destruct (get_str k_v d); [|discriminate]. destruct (get_str k_yourip d); [|discriminate].
    destruct (get_int k_metadata_size d); [|discriminate]. destruct (get_int k_reqq d); [|discriminate].
    intros H; inversion H; exact I. }
  destruct (extid =? 1).
  { destruct (get_int k_msg_type d); [|discriminate]. destruct (get_int k_piece d); [|discriminate].
    destruct (get_int k_total_size d); [|discriminate]. destruct (_ && _); [|discriminate]. intros H; inversion H; exact I. }
  destruct (extid =? 2); [|discriminate].
  destruct (get_str k_added d); [|discriminate]. destruct (get_str k_dropped d); [|discriminate]. intros H; inversion H; exact I.
Qed.

Theorem parse_wf : forall fuel maxmsg s, Forall (rwf maxmsg) (fst (parse fuel maxmsg s)).
Proof.
  induction fuel as [|f IH]; intros maxmsg s; cbn [parse]; [constructor|].
  destruct s as [|a [|b [|c [|d r]]]]; try constructor.
  destruct (rd_be32 a b c d =? 0); [apply IH|].
  destruct r as [|id r1]; [constructor|].
  destruct (rd_be32 a b c d - 1 >? maxmsg) eqn:Emax; [constructor|].
  set (len := rd_be32 a b c d - 1) in *.
  (* the three continuations of the reader: deliver m and go on, a fixed-size body decoded by k, skip *)
  assert (Hemit : forall m rest, rwf maxmsg m ->
    Forall (rwf maxmsg) (fst (let '(ms, e) := parse f maxmsg rest in (m :: ms, e)))).
  { intros m rest Hm. pose proof (IH maxmsg rest) as E. destruct (parse f maxmsg rest) as [ms e].
    constructor; assumption. }
  assert (Hfix : forall n k, (forall p m, k p = Some m -> rwf maxmsg m) ->
    Forall (rwf maxmsg) (fst (match take n r1 with
                              | Some (p, rest) => match k p with
                                                  | Some m => let '(ms, e) := parse f maxmsg rest in (m :: ms, e)
                                                  | None => ([], EndError 2) end
                              | None => ([], EndShort) end))).
  { intros n k Hk. destruct (take n r1) as [[p rest]|]; [|constructor]. destruct (k p) as [m|] eqn:Ek; [|constructor].
    apply Hemit. eapply Hk; eauto. }
  assert (Hdef : Forall (rwf maxmsg) (fst (match take len r1 with Some (_, rest) => parse f maxmsg rest | None => ([], EndShort) end))).
  { destruct (take len r1) as [[p rest]|]; [apply IH|constructor]. }
  destruct id as [|p|p]; [apply Hemit; exact I| |exact Hdef].
  (* the message id, bit by bit: what is left are the ids with a payload, in the order 7 piece, 5 bitfield,
     6 request, 20 extension *)
  do 5 (try destruct p as [p|p|]); try exact Hdef; try (apply Hemit; exact I).
  all: try (apply Hfix; intros q m Hq; repeat (destruct q as [|? q]; try discriminate); inversion Hq; subst; exact I).
  - (* piece *)
    destruct (take 8 r1) as [[p8 r2]|] eqn:E8; [|constructor].
    do 8 (destruct p8 as [|? p8]; [constructor|]). destruct p8; [|constructor].
    destruct ((len - 8) mod two32 >? 16384) eqn:Ed; [constructor|].
    destruct (take ((len - 8) mod two32) r2) as [[pd rest]|] eqn:Et; [|constructor].
    apply Hemit. cbn. rewrite (take_len _ _ _ _ Et). lia.
  - (* bitfield *)
    destruct (take len r1) as [[pb rest]|] eqn:Et; [|constructor].
    apply Hemit. cbn. rewrite (take_len _ _ _ _ Et). lia.
  - (* request *)
    apply Hfix. intros q m Hq. do 12 (destruct q as [|? q]; [discriminate|]). destruct q; [|discriminate].
    cbn in Hq. match type of Hq with (if ?c then _ else _) = _ => destruct c eqn:El end; inversion Hq; subst. cbn. lia.
  - (* extension *)
    destruct (take len r1) as [[pe rest]|] eqn:Et; [|constructor].
    destruct (unmarshal_ext pe) as [m|] eqn:Eu; [|constructor].
    apply Hemit. eapply unmarshal_ext_rwf; eauto.
Qed.

Theorem parse_all_wf maxmsg s : Forall (rwf maxmsg) (fst (parse_all maxmsg s)).
Proof. apply parse_wf. Qed.
