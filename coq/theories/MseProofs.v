(* Mse.v (C12): RC4 decryption inverts encryption; the synchronisation scan finds its pattern exactly
   when no earlier window matches; each party reads the stream an honest peer sends field by field. *)
From RainV Require Import Lib Mse.

Lemma zlen_firstn {A} (l : list A) n : 0 <= n <= zlen l -> zlen (firstn (Z.to_nat n) l) = n.
Proof. unfold zlen. intro H. rewrite firstn_length. lia. Qed.

Lemma take_app n a b : n = zlen a -> take n (a ++ b) = Some (a, b).
Proof.
  intros ->. unfold take. rewrite zlen_app. pose proof (zlen_nonneg b).
  destruct (zlen a + zlen b <? zlen a) eqn:E; [lia|]. unfold zlen.
  rewrite Nat2Z.id, (firstn_app_exact a b _ eq_refl), (skipn_app_exact a b _ eq_refl). reflexivity.
Qed.

Lemma take_short n s : zlen s < n -> take n s = None.
Proof. intro H. unfold take. destruct (zlen s <? n) eqn:E; [reflexivity|lia]. Qed.

Lemma rc4_xor_zlen st d : zlen (fst (rc4_xor st d)) = zlen d.
Proof.
  revert st. induction d as [|x r IH]; intro st; [reflexivity|]. cbn [rc4_xor].
  destruct (rc4_step st) as [k st1]. specialize (IH st1). destruct (rc4_xor st1 r) as [o st2].
  cbn [fst] in *. rewrite !zlen_cons, IH. reflexivity.
Qed.

(* RC4 as a stream cipher: the key stream does not depend on the data *)
Lemma rc4_xor_app st : forall a b,
  rc4_xor st (a ++ b) = (fst (rc4_xor st a) ++ fst (rc4_xor (snd (rc4_xor st a)) b), snd (rc4_xor (snd (rc4_xor st a)) b)).
Proof.
  intros a. revert st. induction a as [|x r IH]; intros st b.
  - cbn. destruct (rc4_xor st b); reflexivity.
  - cbn [app rc4_xor]. destruct (rc4_step st) as [k st1]. rewrite IH.
    destruct (rc4_xor st1 r) as [o st2]. cbn [fst snd]. destruct (rc4_xor st2 b) as [o' st3]. reflexivity.
Qed.

Lemma rc4_xor_inv st : forall d, rc4_xor st (fst (rc4_xor st d)) = (d, snd (rc4_xor st d)).
Proof.
  intro d. revert st. induction d as [|x r IH]; intro st; [reflexivity|]. cbn [rc4_xor].
  destruct (rc4_step st) as [k st1] eqn:E. specialize (IH st1). destruct (rc4_xor st1 r) as [o st2].
  cbn [fst snd] in *. cbn [rc4_xor]. rewrite E, IH. rewrite Z.lxor_assoc, Z.lxor_nilpotent, Z.lxor_0_r. reflexivity.
Qed.

Lemma cxor_inv c d : cxor c (fst (cxor c d)) = (d, snd (cxor c d)).
Proof.
  destruct c as [st|]; [|reflexivity]. cbn [cxor].
  pose proof (rc4_xor_inv st d) as H. destruct (rc4_xor st d) as [o st']. cbn [fst snd] in *.
  rewrite H. reflexivity.
Qed.

Lemma of_be_be16 n : 0 <= n < 65536 -> of_be (be16 n) = n.
Proof. intro H. unfold of_be, be16. cbn [fold_left]. Z.div_mod_to_equations. lia. Qed.

Lemma of_be_be32 n : 0 <= n < 4294967296 -> of_be (be32 n) = n.
Proof. intro H. unfold of_be, be32. cbn [fold_left]. Z.div_mod_to_equations. lia. Qed.

Lemma zlen_be16 n : zlen (be16 n) = 2. Proof. reflexivity. Qed.
Lemma zlen_be32 n : zlen (be32 n) = 4. Proof. reflexivity. Qed.
Lemma zlen_vc : zlen vc = 8. Proof. reflexivity. Qed.
Lemma zlen_zeros n : 0 <= n -> zlen (zeros n) = n.
Proof. intro H. unfold zlen, zeros. rewrite repeat_length. lia. Qed.

(* no window of the stream before position |pre| is the key *)
Definition no_early (key pre : list Z) : Prop :=
  forall k, (k < length pre)%nat -> firstn (length key) (skipn k (pre ++ key)) <> key.

Lemma no_early_cons key b pre : no_early key (b :: pre) ->
  firstn (length key) ((b :: pre) ++ key) <> key /\ no_early key pre.
Proof.
  intro H. split; [exact (H O ltac:(cbn; lia))|].
  intros k Hk. apply (H (S k)). cbn [length]. lia.
Qed.

(* the window of [n] bytes slides by one: the byte that enters it is the head of what follows it *)
Lemma window_step {A} n (b : A) s : (0 < n <= length s)%nat ->
  exists c, skipn n (b :: s) = c :: skipn n s /\ tl (firstn n (b :: s)) ++ [c] = firstn n s.
Proof.
  destruct n as [|n]; [lia|]. intros [_ H]. cbn [skipn firstn tl]. revert s H.
  induction n as [|n IH]; intros [|x s] H; cbn [length] in H; try lia.
  - exists x. split; reflexivity.
  - destruct (IH s ltac:(lia)) as (c & E1 & E2). exists c. cbn [skipn firstn app]. rewrite E2.
    split; [exact E1|reflexivity].
Qed.

Lemma sync_loop_step key b s max : (0 < length key <= length s)%nat ->
  sync_loop key (firstn (length key) (b :: s)) max (skipn (length key) (b :: s)) =
  if list_eqb_Z (firstn (length key) (b :: s)) key then Some (skipn (length key) (b :: s))
  else if max <=? 0 then None
  else sync_loop key (firstn (length key) s) (max - 1) (skipn (length key) s).
Proof.
  intro H. destruct (window_step (length key) b s H) as (c & E1 & E2).
  rewrite E1. cbn [sync_loop]. rewrite E2. reflexivity.
Qed.

Lemma sync_found key : (0 < length key)%nat -> forall pre X max,
  no_early key pre -> Z.of_nat (length pre) <= max ->
  let s := pre ++ key ++ X in
  sync_loop key (firstn (length key) s) max (skipn (length key) s) = Some X.
Proof.
  intros Hk. induction pre as [|b pre IH]; intros X max Hne Hmax; cbv zeta.
  - cbn [app]. rewrite (firstn_app_exact key X _ eq_refl), (skipn_app_exact key X _ eq_refl).
    destruct X; cbn [sync_loop]; rewrite list_eqb_Z_refl; reflexivity.
  - apply no_early_cons in Hne. destruct Hne as [W Hne]. cbn [app length] in *.
    rewrite sync_loop_step by (rewrite !app_length; lia).
    rewrite app_assoc, app_comm_cons, firstn_app_le by (cbn [length]; rewrite app_length; lia).
    rewrite (list_eqb_Z_neq _ _ W). destruct (max <=? 0) eqn:Em; [lia|].
    rewrite <- app_assoc. apply IH; [exact Hne|lia].
Qed.

Lemma read_sync_found key pre X max : (0 < length key)%nat -> no_early key pre ->
  Z.of_nat (length pre) + zlen key <= max -> read_sync key max (pre ++ key ++ X) = Some X.
Proof.
  intros Hk Hne Hmax. unfold read_sync, take, zlen in *. rewrite Nat2Z.id.
  destruct (_ <? _) eqn:E; [apply Z.ltb_lt in E; rewrite !app_length in E; lia|].
  apply sync_found; [exact Hk|exact Hne|lia].
Qed.

(* the key is not found in a stream that ends before it *)
Lemma sync_not_found key : (0 < length key)%nat -> forall pre max,
  no_early key pre -> (length key <= length pre)%nat ->
  sync_loop key (firstn (length key) pre) max (skipn (length key) pre) = None.
Proof.
  intros Hk. induction pre as [|b pre IH]; intros max Hne Hl; [cbn in Hl; lia|].
  apply no_early_cons in Hne. destruct Hne as [W Hne]. rewrite firstn_app_le in W by exact Hl.
  destruct (le_lt_dec (length key) (length pre)) as [L|L].
  - rewrite sync_loop_step by lia. rewrite (list_eqb_Z_neq _ _ W).
    destruct (max <=? 0); [reflexivity|]. apply IH; assumption.
  - (* the window is the whole stream *)
    rewrite (skipn_all2 (b :: pre)) by (cbn [length] in *; lia).
    cbn [sync_loop]. rewrite (list_eqb_Z_neq _ _ W). destruct (max <=? 0); reflexivity.
Qed.

Lemma read_sync_not_found key pre max : (0 < length key)%nat -> no_early key pre -> read_sync key max pre = None.
Proof.
  intros Hk Hne. unfold read_sync, take, zlen. rewrite Nat2Z.id.
  destruct (_ <? _) eqn:E; [reflexivity|]. apply sync_not_found; [exact Hk|exact Hne|lia].
Qed.

Lemma sync_err_of_none key : forall rest win max, sync_loop key win max rest = None -> sync_loop_err key win max rest <> 0.
Proof.
  induction rest as [|b r IH]; intros win max H; cbn [sync_loop sync_loop_err] in *;
    destruct (list_eqb_Z win key); try discriminate; destruct (max <=? 0); try lia.
  apply IH. exact H.
Qed.

Lemma read_sync_err_of_none key max s : read_sync key max s = None -> read_sync_err key max s <> 0.
Proof.
  unfold read_sync, read_sync_err. destruct (take (zlen key) s) as [[w rest]|]; [apply sync_err_of_none|lia].
Qed.

Lemma sel_policy_forced k provided : sel_policy 1 k provided = 0 \/ sel_policy 1 k provided = 2.
Proof. unfold sel_policy. cbn. rewrite andb_false_r. destruct (negb _); [right|left]; reflexivity. Qed.

Lemma accept_forced has_skey plain e s : accept_policy true has_skey plain e s = 0 \/ accept_policy true has_skey plain e s = 2.
Proof. unfold accept_policy. destruct plain, has_skey, (e =? 0), (s =? 2); cbn; auto. Qed.

(* with encryption enabled and forced only RC4 is offered, no clear-text connection is attempted, and the
   connection is used only when RC4 was selected (the initiator accepts only what it offered) *)
Lemma dial_forced_offer : dial_provide true = 2.
Proof. reflexivity. Qed.
Lemma dial_forced_no_clear e s plain_ok : snd (dial_policy true true e s plain_ok) = false.
Proof. unfold dial_policy. cbn. destruct (e =? 0); [destruct (s =? 2)|]; reflexivity. Qed.
Lemma sel_valid_forced_not_plain sel : sel_valid sel 2 = true -> sel <> 1.
Proof. intros H ->. discriminate H. Qed.

(* [hs3] / [hs4]: the plaintext of the encrypted part of message 3 / 4, spelled as [initiator] and
   [responder] of Mse.v build it, so that [fold] finds it in their unfolded bodies *)
Definition xor20 (a b : list Z) : list Z := map (fun p => Z.lxor (fst p) (snd p)) (combine a b).
Definition hs3 (provide lenC : Z) (ia : list Z) : list Z := vc ++ be32 provide ++ be16 lenC ++ zeros lenC ++ be16 (zlen ia) ++ ia.
Definition hs4 (sel lenD : Z) : list Z := vc ++ be32 sel ++ be16 lenD ++ zeros lenD.

Lemma xor20_inv : forall a b, length a = length b -> xor20 (xor20 a b) b = a.
Proof.
  unfold xor20. induction a as [|x r IH]; intros [|y r'] H; cbn in *; try discriminate; [reflexivity|].
  rewrite Z.lxor_assoc, Z.lxor_nilpotent, Z.lxor_0_r. f_equal. apply IH. lia.
Qed.

Lemma xor20_len : forall a b, length a = length b -> length (xor20 a b) = length a.
Proof. unfold xor20. intros a b H. rewrite map_length, combine_length. lia. Qed.

(* taking the encryption of a prefix off an encrypted stream *)
Lemma dec_take st P1 P2 R n : n = zlen P1 ->
  take n (fst (rc4_xor st (P1 ++ P2)) ++ R) =
  Some (fst (rc4_xor st P1), fst (rc4_xor (snd (rc4_xor st P1)) P2) ++ R).
Proof.
  intros ->. rewrite rc4_xor_app. cbn [fst]. rewrite <- app_assoc. apply take_app. symmetry. apply rc4_xor_zlen.
Qed.

Lemma dec_take_last st P1 R n : n = zlen P1 ->
  take n (fst (rc4_xor st P1) ++ R) = Some (fst (rc4_xor st P1), R).
Proof. intros ->. apply take_app. symmetry. apply rc4_xor_zlen. Qed.

Lemma first_read_ge chunks : forall acc f, first_read chunks acc = Some f -> 96 <= f.
Proof.
  induction chunks as [|c r IH]; intros acc f H; cbn [first_read] in H; destruct (96 <=? acc) eqn:E; try discriminate.
  1, 2: injection H as <-; lia.
  eapply IH. exact H.
Qed.

Section Honest.
  Variables (ya padA yb padB ia : list Z) (provide lenC lenD pol polk : Z) (o : oracle) (known : list Z).
  Hypothesis Hya : zlen ya = 96.
  Hypothesis Hyb : zlen yb = 96.
  Hypothesis Hr1 : zlen (o_req1 o) = 20.
  Hypothesis Hr2 : zlen (o_req2 o) = 20.
  Hypothesis Hr3 : zlen (o_req3 o) = 20.
  Hypothesis Hprov : 0 < provide < 4294967296.
  Hypothesis HlenC : 0 <= lenC < 65536.
  Hypothesis HlenD : 0 <= lenD < 65536.
  Hypothesis Hia : zlen ia < 65536.
  Hypothesis Hpolk : 0 <= polk < 4294967296.

  Let P := hs3 provide lenC ia.
  Let stA := rc4_init (o_keyA o).
  Let stB := rc4_init (o_keyB o).
  Let body := fst (rc4_xor stA P).
  Let m1 := ya ++ padA.
  Let m2 := yb ++ padB.
  Let m3 := o_req1 o ++ xor20 (o_req2 o) (o_req3 o) ++ body.
  Let sel := sel_policy pol polk provide.
  Let m4 := fst (rc4_xor stB (hs4 sel lenD)).

  Lemma responder_honest chunks tail f :
    first_read chunks 0 = Some f -> f <= 96 + zlen padA -> zlen padA <= 512 ->
    no_early (o_req1 o) (skipn (Z.to_nat f) m1) ->
    responder yb padB lenD pol polk o known (m1 ++ m3 ++ tail) chunks =
      if negb (list_eqb_Z (o_req2 o) known) then failed m2 [] 3
      else if negb (sel_valid sel provide) then failed m2 [] 6
      else {| p_sent1 := m2; p_sent2 := m4; p_err := 0; p_sel := sel; p_ia := ia; p_rest := tail;
              p_enc := cipher_for sel (snd (rc4_xor stB (hs4 sel lenD)));
              p_dec := cipher_for sel (snd (rc4_xor stA P)) |}.
  Proof.
    intros Hf Hfle Hpad Hne. pose proof (first_read_ge _ _ _ Hf) as Hfge.
    unfold responder. rewrite Hf.
    assert (Lm1 : zlen m1 = 96 + zlen padA) by (unfold m1; rewrite zlen_app; lia).
    rewrite skipn_app_le by (unfold zlen in *; lia).
    unfold m3 at 1. rewrite <- !app_assoc.
    rewrite read_sync_found; [| unfold zlen in Hr1; lia | exact Hne |].
    2:{ rewrite skipn_length. unfold zlen in *. lia. }
    rewrite take_app by (unfold zlen in *; rewrite xor20_len; lia).
    fold (xor20 (xor20 (o_req2 o) (o_req3 o)) (o_req3 o)). rewrite xor20_inv by (unfold zlen in *; lia).
    destruct (negb (list_eqb_Z (o_req2 o) known)); [reflexivity|].
    fold stA stB. unfold body, P, hs3.
    (* each field is taken off the stream and decrypted to what was sent: VC *)
    rewrite (dec_take stA vc _ tail 8 eq_refl), rc4_xor_inv, list_eqb_Z_refl. cbn [negb].
    (* crypto_provide *)
    rewrite (dec_take _ (be32 provide) _ tail 4 eq_refl), rc4_xor_inv, of_be_be32 by lia.
    destruct (provide =? 0) eqn:Ep; [lia|]. fold sel.
    destruct (negb (sel_valid sel provide)); [reflexivity|].
    (* PadC *)
    rewrite (dec_take _ (be16 lenC) _ tail 2 eq_refl), rc4_xor_inv, of_be_be16 by lia.
    rewrite (dec_take _ (zeros lenC) _ tail lenC), rc4_xor_inv by (rewrite zlen_zeros; lia).
    (* IA *)
    rewrite (dec_take _ (be16 (zlen ia)) _ tail 2 eq_refl), rc4_xor_inv, of_be_be16 by (pose proof (zlen_nonneg ia); lia).
    rewrite (dec_take_last _ ia tail (zlen ia) eq_refl), rc4_xor_inv.
    unfold m4, hs4.
    destruct (rc4_xor stB (vc ++ be32 sel ++ be16 lenD ++ zeros lenD)) as [w e1]. cbn [fst snd].
    f_equal. f_equal.
    (* the decryption state: the whole third message was consumed *)
    rewrite !rc4_xor_app. cbn [snd fst]. reflexivity.
  Qed.

  Lemma initiator_honest chunks tail f :
    first_read chunks 0 = Some f -> f <= 96 + zlen padB -> zlen padB <= 512 ->
    no_early (fst (rc4_xor stB vc)) (skipn (Z.to_nat f) m2) ->
    sel_valid sel provide = true ->
    initiator ya padA provide lenC ia o (m2 ++ m4 ++ tail) chunks =
      {| p_sent1 := m1; p_sent2 := m3; p_err := 0; p_sel := sel; p_ia := []; p_rest := tail;
         p_enc := cipher_for sel (snd (rc4_xor stA P));
         p_dec := cipher_for sel (snd (rc4_xor stB (hs4 sel lenD))) |}.
  Proof.
    intros Hf Hfle Hpad Hne Hsel. pose proof (first_read_ge _ _ _ Hf) as Hfge.
    unfold initiator. destruct (provide =? 0) eqn:Ep; [lia|].
    destruct (65535 <? zlen ia) eqn:Ei; [lia|]. rewrite Hf. fold stA stB. fold (hs3 provide lenC ia). fold P.
    destruct (rc4_xor stA P) as [bd e1] eqn:EP.
    destruct (rc4_xor stB vc) as [vcenc d1] eqn:EV. cbn [fst] in Hne.
    assert (Lm2 : zlen m2 = 96 + zlen padB) by (unfold m2; rewrite zlen_app; lia).
    rewrite skipn_app_le by (unfold zlen in *; lia).
    (* the fourth message starts with the encrypted VC; rewritten as an equation, because
       with [m4] unfolded in the goal the closing [Qed] takes seconds *)
    assert (Em4 : m4 = vcenc ++ fst (rc4_xor d1 (be32 sel ++ be16 lenD ++ zeros lenD))).
    { unfold m4, hs4. rewrite rc4_xor_app. rewrite EV. reflexivity. }
    assert (Lv : zlen vcenc = 8) by (pose proof (rc4_xor_zlen stB vc) as X; rewrite EV in X; exact X).
    rewrite Em4. rewrite <- !app_assoc.
    rewrite read_sync_found; [| unfold zlen in Lv; lia | exact Hne |].
    2:{ rewrite skipn_length. unfold zlen in *. lia. }
    rewrite (dec_take d1 (be32 sel) _ tail 4 eq_refl), rc4_xor_inv.
    assert (Hsr : 0 <= sel < 4294967296).
    { unfold sel, sel_policy. destruct (pol =? 2); [exact Hpolk|].
      destruct (negb (Z.land provide 2 =? 0)); [lia|]. destruct (negb (Z.land provide 1 =? 0) && (pol =? 0)); lia. }
    rewrite of_be_be32 by exact Hsr. rewrite Hsel. cbn [negb].
    rewrite (dec_take _ (be16 lenD) _ tail 2 eq_refl), rc4_xor_inv, of_be_be16 by lia.
    rewrite (dec_take_last _ (zeros lenD) tail lenD), rc4_xor_inv by (rewrite zlen_zeros; lia).
    unfold m3, body. fold (xor20 (o_req2 o) (o_req3 o)).
    f_equal. f_equal. unfold hs4. rewrite !rc4_xor_app. rewrite EV. cbn [fst snd]. reflexivity.
  Qed.
End Honest.

