(* Model of markFileEdges / fileEdgeSize (internal/piecepicker/piecepicker.go): which pieces hold
   data from the first or the last bytes of a file (sequential mode downloads these first).
   File names are compared; the model compares file indexes (names are distinct, C07). *)
From RainV Require Import Lib Geometry.

Definition max_edge : Z := 8388608.   (* 8 MiB *)
Definition edge_size (sz : Z) : Z := Z.max (Z.min (sz / 100) max_edge) 1.

(* sizes[name] = max over the non-padding sections of the file of Offset+Length (0 when there is none) *)
Definition file_size (ps : list piece) (f : nat) : Z :=
  fold_left (fun m s => if negb (spad s) && Nat.eqb (sfile s) f then Z.max m (soff s + slen s) else m)
            (flat_map psecs ps) 0.

Definition sec_head (ps : list piece) (s : section) : bool :=
  negb (spad s) && (soff s <? edge_size (file_size ps (sfile s))).
Definition sec_tail (ps : list piece) (s : section) : bool :=
  negb (spad s) && (soff s + slen s >? file_size ps (sfile s) - edge_size (file_size ps (sfile s))).

Definition mark_piece (ps : list piece) (p : piece) : bool * bool :=
  (existsb (sec_head ps) (psecs p), existsb (sec_tail ps) (psecs p)).

(* kind 905: in = [PL; npieces; nfiles; (len pad)*]  out = (head tail) per piece *)
Definition run_edges (inp : list Z) : list Z :=
  match inp with
  | pl :: np :: nf :: r =>
      let fs := rd_files (Z.to_nat nf) r in
      match new_pieces fs pl (sum_flen fs) (Z.to_nat np) with
      | Ok ps => flat_map (fun p => let '(h, t) := mark_piece ps p in [b2z h; b2z t]) ps
      | _ => [-778]
      end
  | _ => [-779]
  end.


Lemma edge_size_pos sz : 1 <= edge_size sz.
Proof. unfold edge_size. lia. Qed.

Lemma edge_size_le sz : edge_size sz <= Z.max max_edge 1.
Proof. unfold edge_size, max_edge. lia. Qed.

Lemma fold_max_ge (g : section -> bool) : forall l m, m <= fold_left (fun m s => if g s then Z.max m (soff s + slen s) else m) l m.
Proof.
  induction l as [|s r IH]; intros m; cbn [fold_left]; [lia|]. destruct (g s); [|apply IH].
  pose proof (IH (Z.max m (soff s + slen s))). lia.
Qed.

Lemma fold_max_in (g : section -> bool) : forall l m s, In s l -> g s = true ->
  soff s + slen s <= fold_left (fun m s => if g s then Z.max m (soff s + slen s) else m) l m.
Proof.
  induction l as [|x r IH]; intros m s Hin Hg; [destruct Hin|]. cbn [fold_left]. destruct Hin as [->|Hin].
  - rewrite Hg. pose proof (fold_max_ge g r (Z.max m (soff s + slen s))). lia.
  - apply IH; assumption.
Qed.

(* every non-padding section ends inside its file as the picker measures it *)
Lemma sec_within_size ps p s : In p ps -> In s (psecs p) -> spad s = false -> soff s + slen s <= file_size ps (sfile s).
Proof.
  intros Hp Hs Hpad. unfold file_size. apply (fold_max_in (fun x => negb (spad x) && Nat.eqb (sfile x) (sfile s))).
  - apply in_flat_map. exists p. split; assumption.
  - rewrite Hpad, Nat.eqb_refl. reflexivity.
Qed.

(* the piece that holds the first byte of a file is a head piece, the piece that holds its last byte
   is a tail piece, whatever the file size (the edge is at least one byte wide) *)
Theorem first_and_last_piece_marked ps p s : In p ps -> In s (psecs p) -> spad s = false ->
  (soff s = 0 -> fst (mark_piece ps p) = true) /\
  (soff s + slen s = file_size ps (sfile s) -> snd (mark_piece ps p) = true).
Proof.
  intros Hp Hs Hpad. unfold mark_piece. cbn [fst snd]. split; intros H; apply existsb_exists; exists s; (split; [exact Hs|]).
  - unfold sec_head. rewrite Hpad. cbn [negb andb]. pose proof (edge_size_pos (file_size ps (sfile s))). lia.
  - unfold sec_tail. rewrite Hpad. cbn [negb andb]. pose proof (edge_size_pos (file_size ps (sfile s))). lia.
Qed.

(* a piece is marked only because of a section within the edge distance of an end of its file *)
Theorem marked_piece_is_near_an_end ps p : 
  (fst (mark_piece ps p) = true -> exists s, In s (psecs p) /\ spad s = false /\ soff s < Z.max max_edge 1) /\
  (snd (mark_piece ps p) = true -> exists s, In s (psecs p) /\ spad s = false /\
                                             file_size ps (sfile s) - Z.max max_edge 1 < soff s + slen s).
Proof.
  unfold mark_piece. cbn [fst snd]. split; intros H; apply existsb_exists in H as (s & Hs & Hc); exists s; (split; [exact Hs|]).
  - unfold sec_head in Hc. apply andb_prop in Hc as [H1 H2]. split; [destruct (spad s); [discriminate|reflexivity]|].
    pose proof (edge_size_le (file_size ps (sfile s))). lia.
  - unfold sec_tail in Hc. apply andb_prop in Hc as [H1 H2]. split; [destruct (spad s); [discriminate|reflexivity]|].
    pose proof (edge_size_le (file_size ps (sfile s))). lia.
Qed.
