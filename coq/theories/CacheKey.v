From RainV Require Import Lib Wire WireProofs.

(* C03: the read-cache key of a block (cachedpiece.readBlock) is
   20-byte id ++ big-endian piece index ++ big-endian block number: fixed width, so two
   different (id, piece, block) triples never share a key and a block of one piece is never answered
   from the cached block of another *)
Definition cache_key (id : list Z) (piece blk : Z) : list Z := id ++ be32 piece ++ be32 blk.

Lemma be32_inj x y : u32 x -> u32 y -> be32 x = be32 y -> x = y.
Proof.
  intros Hx Hy H. unfold be32 in H. inversion H as [[H1 H2 H3 H4]].
  rewrite <- (rd_be32_be32 x Hx), <- (rd_be32_be32 y Hy). rewrite H1, H2, H3, H4. reflexivity.
Qed.

Lemma app_inj_len {A} (a a' b b' : list A) : length a = length a' -> a ++ b = a' ++ b' -> a = a' /\ b = b'.
Proof.
  revert a'. induction a as [|x r IH]; intros [|y r'] Hl H; cbn [length] in Hl; try lia.
  - split; [reflexivity|exact H].
  - cbn [app] in H. inversion H; subst. destruct (IH r' ltac:(lia) H2) as [-> ->]. split; reflexivity.
Qed.

Theorem cache_key_injective id id' p p' b b' : length id = length id' -> u32 p -> u32 p' -> u32 b -> u32 b' ->
  cache_key id p b = cache_key id' p' b' -> id = id' /\ p = p' /\ b = b'.
Proof.
  intros Hl Hp Hp' Hb Hb' H. unfold cache_key in H.
  destruct (app_inj_len _ _ _ _ Hl H) as [-> H2]. split; [reflexivity|].
  destruct (app_inj_len (be32 p) (be32 p') _ _ eq_refl H2) as [E1 E2].
  split; [apply be32_inj; assumption|apply be32_inj; assumption].
Qed.
