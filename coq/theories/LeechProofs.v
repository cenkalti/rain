(* Session-level download integrity over the Leech model: for every event history and every
   observed piece assignment (legal or not), storage is written only from a buffer all of whose
   blocks were accepted with the true bytes, Done/bitfield/have only follow such a write, at most
   one write is in flight, a source whose buffer fails the hash check is closed and banned and a
   closed peer never downloads again.

   Every handler is a composition of a few moves: an update of one peer's record, a map over all
   records, the validation flag, and (block completing a piece, write result) a change of the
   piece flags.  [hstep] says what every such composition does to the peers, [fstep] adds that
   nothing but the peers and the flag changed; each handler is walked through once. *)
From RainV Require Import Lib Geometry SectionIO PieceDl PieceDlProofs Leech.

(* the part of the state the peers' bookkeeping never touches *)
Definition core (s : lst) :=
  (s_blocks s, s_secs s, s_done s, s_writing s, s_inflight s, s_banned s, s_completed s, s_inhist s, s_written s, s_q s, s_maxdup s).

Lemma core_with_peers s ps : core (with_peers s ps) = core s. Proof. reflexivity. Qed.

(* the state without the peers and the validation flag *)
Definition frame (s : lst) : lst :=
  {| s_blocks := s_blocks s; s_secs := s_secs s; s_done := s_done s; s_writing := s_writing s; s_peers := [];
     s_inflight := s_inflight s; s_banned := s_banned s; s_completed := s_completed s; s_q := s_q s;
     s_maxdup := s_maxdup s; s_stopped := s_stopped s; s_inhist := s_inhist s; s_written := s_written s; s_bad := 0 |}.

Lemma upd_list_length {A} (f : A -> A) : forall l i, length (upd_list l i f) = length l.
Proof. induction l as [|x r IH]; intros [|k]; cbn; auto. Qed.
Lemma get_upd_list {A} (f : A -> A) d : forall l i r, nth r (upd_list l i f) d = if (Nat.eqb r i && Nat.ltb i (length l))%bool then f (nth r l d) else nth r l d.
Proof.
  induction l as [|x t IH]; intros i r; cbn.
  - rewrite Bool.andb_false_r. destruct i, r; reflexivity.
  - destruct i as [|k], r as [|m]; cbn; auto. rewrite IH. reflexivity.
Qed.
Lemma setb_upd_list : forall l i v, setb l i v = upd_list l i (fun _ => v).
Proof. induction l as [|x r IH]; intros [|k] v; cbn; [reflexivity..|]. rewrite IH. reflexivity. Qed.
Lemma nth_setb l i v n : nth n (setb l i v) false = if (Nat.eqb n i && Nat.ltb i (length l))%bool then v else nth n l false.
Proof. rewrite setb_upd_list. apply get_upd_list. Qed.
Lemma nth_setb_true l i n : nth n (setb l i true) false = true -> n = i \/ nth n l false = true.
Proof. rewrite nth_setb. destruct (Nat.eqb_spec n i); cbn [andb]; auto. Qed.
Lemma nth_setb_false l i n : nth n (setb l i false) false = true -> n <> i /\ nth n l false = true.
Proof.
  rewrite nth_setb. destruct (Nat.eqb_spec n i) as [->|]; cbn [andb]; [|auto].
  destruct (Nat.ltb_spec i (length l)); [discriminate|]. rewrite nth_overflow by lia. discriminate.
Qed.

Lemma get_p_index s r r' : Z.to_nat r = Z.to_nat r' -> get_p s r = get_p s r'.
Proof. unfold get_p. intros ->. reflexivity. Qed.
Lemma get_upd_p s p f r : get_p (upd_p s p f) r =
  if ((0 <=? p) && Nat.eqb (Z.to_nat r) (Z.to_nat p) && Nat.ltb (Z.to_nat p) (length (s_peers s)))%bool
  then f (get_p s p) else get_p s r.
Proof.
  unfold upd_p, get_p. destruct (p <? 0) eqn:E.
  - replace (0 <=? p) with false by lia. reflexivity.
  - replace (0 <=? p) with true by lia. cbn. rewrite get_upd_list.
    destruct (Nat.eqb_spec (Z.to_nat r) (Z.to_nat p)) as [->|]; reflexivity.
Qed.
Lemma get_p_map s f r : f default_peer = default_peer -> get_p (with_peers s (map f (s_peers s))) r = f (get_p s r).
Proof. intros E. unfold get_p. cbn. rewrite <- E at 1. apply map_nth. Qed.
Lemma frame_upd_p s p f : frame (upd_p s p f) = frame s.
Proof. unfold upd_p. destruct (p <? 0); reflexivity. Qed.
Lemma bad_upd_p s p f : s_bad (upd_p s p f) = s_bad s.
Proof. unfold upd_p. destruct (p <? 0); reflexivity. Qed.

(* downloaders: the ghost history agrees with the bookkeeping *)
Definition dl_ok (bls : list (list blk)) (d : ldl) : Prop :=
  l_good d = forallb snd (l_hist d) /\ map fst (l_hist d) = pd_done (l_pd d) /\
  pd_blocks (l_pd d) = nth (Z.to_nat (l_idx d)) bls [] /\ DoneInv (l_pd d).
Definition peer_ok (bls : list (list blk)) (q : lpeer) : Prop :=
  (forall d, q_dl q = Some d -> dl_ok bls d) /\ (q_closed q = true -> q_dl q = None).
Definition peers_ok (s : lst) : Prop := forall r, peer_ok (s_blocks s) (get_p s r).
Lemma peer_ok_none bls q : q_dl q = None -> peer_ok bls q.
Proof. intros E. split; [intros d H; congruence|auto]. Qed.

(* what a handler may do to one peer's record: the downloader stays consistent, and a closed
   peer stays closed (relative to [CP], which [h_connect] needs) *)
Definition CP (q : lpeer) : Prop := q_closed q = true -> q_present q = true.
Definition qstep (bls : list (list blk)) (q q' : lpeer) : Prop :=
  (peer_ok bls q -> peer_ok bls q') /\ (CP q -> CP q' /\ (q_closed q = true -> q_closed q' = true)).

Lemma qstep_refl bls q : qstep bls q q.
Proof. split; auto. Qed.
Lemma qstep_trans bls a b c : qstep bls a b -> qstep bls b c -> qstep bls a c.
Proof.
  intros [P1 C1] [P2 C2]. split; [auto|]. intros Ha.
  destruct (C1 Ha) as [Hb L1]. destruct (C2 Hb) as [Hc L2]. auto.
Qed.
Lemma qstep_set bls q q' : q_closed q' = q_closed q -> q_present q' = q_present q -> (peer_ok bls q -> peer_ok bls q') -> qstep bls q q'.
Proof. intros E1 E2 H. split; [exact H|]. unfold CP. rewrite E1, E2. auto. Qed.
Lemma qstep_same bls q q' : q_dl q' = q_dl q -> q_closed q' = q_closed q -> q_present q' = q_present q -> qstep bls q q'.
Proof. intros E1 E2 E3. apply qstep_set; [assumption..|]. unfold peer_ok. rewrite E1, E2. auto. Qed.
Lemma qstep_frames bls q fs : qstep bls q (add_frames q fs).
Proof. unfold add_frames. destruct (q_closed q) eqn:E; [apply qstep_refl|]. apply qstep_same; cbn; congruence. Qed.
Lemma qstep_close bls q : qstep bls q (close_q q).
Proof.
  unfold close_q. destruct (q_present q) eqn:E; cbn [negb]; [|apply qstep_refl].
  split; [intros _; apply peer_ok_none; reflexivity|]. intros _. unfold CP; cbn. auto.
Qed.
Lemma qstep_none bls q : qstep bls q (set_dl q None).
Proof. apply qstep_set; [reflexivity..|]. intros _. apply peer_ok_none. reflexivity. Qed.
Lemma qstep_some bls q d : (peer_ok bls q -> q_closed q = false /\ dl_ok bls d) -> qstep bls q (set_dl q (Some d)).
Proof.
  intros H. apply qstep_set; [reflexivity..|]. intros P. destruct (H P) as [Hc Hd].
  split; cbn; [intros d' E; inversion E; subst; exact Hd|congruence].
Qed.
(* the downloader after an operation that keeps its blocks and the set of received ones *)
Lemma qstep_repd bls q d af pd' : q_dl q = Some d -> pd_done pd' = pd_done (l_pd d) /\ pd_blocks pd' = pd_blocks (l_pd d) ->
  qstep bls q (set_dl q (Some {| l_idx := l_idx d; l_af := af; l_pd := pd'; l_good := l_good d; l_hist := l_hist d |})).
Proof.
  intros Ed [E1 E2]. apply qstep_some. intros [A B]. split.
  - destruct (q_closed q); [rewrite (B eq_refl) in Ed; discriminate|reflexivity].
  - destruct (A d Ed) as (H1 & H2 & H3 & H4). unfold dl_ok, DoneInv; cbn. rewrite E1, E2. auto.
Qed.

(* the same for the whole state; peers in [P] are not touched at all *)
Definition except (p r : Z) : Prop := Z.to_nat r <> Z.to_nat p.
Definition nobody (r : Z) : Prop := False.
Record hstep (P : Z -> Prop) (s s' : lst) : Prop := {
  hs_blocks : s_blocks s' = s_blocks s;
  hs_bad : s_bad s' = 0 -> s_bad s = 0;
  hs_other : forall r, P r -> get_p s' r = get_p s r;
  hs_peer : forall r, qstep (s_blocks s) (get_p s r) (get_p s' r) }.
Definition fstep (P : Z -> Prop) (s s' : lst) : Prop := frame s' = frame s /\ hstep P s s'.

Lemma hstep_refl P s : hstep P s s.
Proof. constructor; auto. intros r. apply qstep_refl. Qed.
Lemma hstep_trans P a b c : hstep P a b -> hstep P b c -> hstep P a c.
Proof.
  intros [B1 D1 O1 Q1] [B2 D2 O2 Q2]. constructor.
  - congruence.
  - auto.
  - intros r Hr. rewrite (O2 r Hr). auto.
  - intros r. eapply qstep_trans; [apply Q1|]. rewrite <- B1. apply Q2.
Qed.
Lemma hstep_all P s s' : hstep P s s' -> hstep nobody s s'.
Proof. intros [B D O Q]. constructor; auto. intros r []. Qed.
Lemma hstep_peers P s s' : s_peers s' = s_peers s -> s_blocks s' = s_blocks s -> (s_bad s' = 0 -> s_bad s = 0) -> hstep P s s'.
Proof.
  intros E1 E2 E3. constructor; [exact E2|exact E3| |]; intros r; unfold get_p; rewrite E1; [reflexivity|apply qstep_refl].
Qed.
Lemma hstep_map s s' f : s_peers s' = map f (s_peers s) -> f default_peer = default_peer -> (forall q, qstep (s_blocks s) q (f q)) ->
  s_blocks s' = s_blocks s -> s_bad s' = s_bad s -> hstep nobody s s'.
Proof.
  intros E Hd Hf E2 E3. constructor; [exact E2|rewrite E3; auto|intros r []|].
  intros r. replace (get_p s' r) with (f (get_p s r)); [apply Hf|].
  rewrite <- (get_p_map s f r Hd). unfold get_p. rewrite E. reflexivity.
Qed.
Lemma hstep_peers_ok P s s' : hstep P s s' -> peers_ok s -> peers_ok s'.
Proof. intros [B _ _ Q] H r. rewrite B. apply Q, H. Qed.

Lemma fstep_refl P s : fstep P s s.
Proof. split; [reflexivity|apply hstep_refl]. Qed.
Lemma fstep_trans P a b c : fstep P a b -> fstep P b c -> fstep P a c.
Proof. intros [E1 H1] [E2 H2]. split; [congruence|eapply hstep_trans; eauto]. Qed.
Lemma fstep_all p s s' : fstep (except p) s s' -> fstep nobody s s'.
Proof. intros [E H]. exact (conj E (hstep_all _ _ _ H)). Qed.
(* the validation flag records the first reason only and is never cleared *)
Lemma with_bad_zero s w : s_bad (with_bad s w) = 0 -> s_bad s = 0 /\ w = 0.
Proof. cbn. destruct (Z.eqb_spec (s_bad s) 0); lia. Qed.
Lemma fstep_bad P s w : fstep P s (with_bad s w).
Proof. split; [reflexivity|]. apply hstep_peers; [reflexivity..|]. intros H. exact (proj1 (with_bad_zero _ _ H)). Qed.
Lemma fstep_upd s p f : qstep (s_blocks s) (get_p s p) (f (get_p s p)) -> fstep (except p) s (upd_p s p f).
Proof.
  intros H. split; [apply frame_upd_p|]. constructor.
  - exact (f_equal s_blocks (frame_upd_p s p f)).
  - rewrite bad_upd_p. auto.
  - intros r Hr. rewrite get_upd_p, (proj2 (Nat.eqb_neq _ _) Hr), Bool.andb_false_r. reflexivity.
  - intros r. rewrite get_upd_p. destruct (Nat.eqb_spec (Z.to_nat r) (Z.to_nat p)) as [E|E].
    + rewrite (get_p_index s r p E). destruct (_ && _)%bool; [exact H|apply qstep_refl].
    + rewrite Bool.andb_false_r. apply qstep_refl.
Qed.

Lemma req_blocks_keep : forall rem d q sent,
  pd_done (fst (req_blocks d rem q sent)) = pd_done d /\ pd_blocks (fst (req_blocks d rem q sent)) = pd_blocks d.
Proof.
  induction rem as [|b r IH]; intros d q sent; cbn [req_blocks]; [auto|].
  destruct (zlen (pd_pending d) >=? q); [auto|exact (IH _ _ _)].
Qed.
Lemma choked_keep d : pd_done (choked d) = pd_done d /\ pd_blocks (choked d) = pd_blocks d.
Proof. unfold choked. destruct (_ || _); auto. Qed.
Lemma rejected_keep d b n : pd_done (fst (rejected d b n)) = pd_done d /\ pd_blocks (fst (rejected d b n)) = pd_blocks d.
Proof. unfold rejected. destruct (find_block d b n); auto. Qed.

Lemma fstep_close s p : fstep (except p) s (close_peer s p).
Proof. apply fstep_upd, qstep_close. Qed.
Lemma fstep_do_request s p : fstep (except p) s (do_request s p).
Proof.
  unfold do_request, request_blocks. destruct (q_dl (get_p s p)) as [d|] eqn:Ed; [|apply fstep_refl].
  pose proof (req_blocks_keep (pd_remaining (l_pd d)) (l_pd d) (eff_q s (get_p s p)) []) as K.
  destruct (req_blocks _ _ _ _) as [pd' sent]. apply fstep_upd.
  eapply qstep_trans; [apply (qstep_repd _ _ d (l_af d) pd' Ed K)|apply qstep_frames].
Qed.
Lemma fstep_interest s p : fstep (except p) s (upd_interest s p).
Proof.
  unfold upd_interest. destruct (Bool.eqb _ _); [apply fstep_refl|]. apply fstep_upd.
  eapply qstep_trans; [|apply qstep_frames]. apply qstep_same; reflexivity.
Qed.
Lemma fstep_clear s : fstep nobody s (clear_frames s).
Proof. split; [reflexivity|]. eapply hstep_map; try reflexivity. intros q. apply qstep_same; reflexivity. Qed.
Lemma fstep_fold (g : lst -> Z -> lst) : (forall s p, fstep nobody s (g s p)) -> forall l s, fstep nobody s (fold_left g l s).
Proof. intros Hg. induction l as [|x r IH]; intros s; cbn; [apply fstep_refl|]. eapply fstep_trans; [apply Hg|apply IH]. Qed.

Lemma legal_new_open s all q i af : legal_new s all q i af = true -> q_closed q = false.
Proof. unfold legal_new, open_q. destruct (q_closed q); [|reflexivity]. destruct (s_completed s), (q_present q); discriminate. Qed.
Lemma new_dl_ok s q i af : dl_ok (s_blocks s) (new_dl s q i af).
Proof. unfold dl_ok, new_dl, DoneInv; cbn. repeat split; auto; try constructor. intros x []. Qed.

Lemma fstep_assign_go : forall asg s tried all p, fstep nobody s (assign_go s tried asg all p).
Proof.
  induction asg as [|a r IH]; intros s tried all p; cbn [assign_go]; [apply fstep_refl|].
  eapply fstep_trans; [|apply IH].
  destruct (q_dl (get_p s p)), (dec_asg a) as [[i af]|]; try apply fstep_refl; try apply fstep_bad.
  - destruct (_ && _); [apply fstep_refl|apply fstep_bad].
  - destruct (zmem p tried && legal_new s all (get_p s p) i af) eqn:El; [|apply fstep_bad].
    apply andb_prop in El as [_ El]. apply (fstep_all p). eapply fstep_trans; [|apply fstep_do_request].
    apply fstep_upd, qstep_some. intros _. split; [exact (legal_new_open _ _ _ _ _ El)|apply new_dl_ok].
Qed.
Lemma fstep_assign s tried asg : fstep nobody s (assign s tried asg).
Proof. unfold assign. destruct (Nat.eqb _ _); [apply fstep_assign_go|apply fstep_bad]. Qed.
Lemma fstep_post_check s : fstep nobody s (post_check s).
Proof. unfold post_check. destruct (first_such _ _); [apply fstep_bad|]. destruct (first_such _ _); [apply fstep_bad|apply fstep_refl]. Qed.

Lemma fstep_has s p h : fstep (except p) s (upd_interest (upd_p s p (fun q => set_has q (h q))) p).
Proof. eapply fstep_trans; [|apply fstep_interest]. apply fstep_upd, qstep_same; reflexivity. Qed.
Lemma fstep_choking s p c : fstep (except p) s (upd_p s p (fun q => set_choking q c)).
Proof. apply fstep_upd, qstep_same; reflexivity. Qed.
Lemma fstep_unchoke s p : fstep (except p) s (fst (h_unchoke s p)).
Proof.
  unfold h_unchoke. destruct (q_dl (get_p s p)) as [d|]; [|apply fstep_choking].
  destruct (l_af d); exact (fstep_trans _ _ _ _ (fstep_choking s p false) (fstep_do_request _ p)).
Qed.
Lemma fstep_choke s p : fstep (except p) s (fst (h_choke s p)).
Proof.
  unfold h_choke. destruct (q_dl (get_p s p)) as [d|] eqn:Ed; [|apply fstep_choking]. destruct (l_af d); [apply fstep_choking|]. cbn [fst].
  eapply fstep_trans; [apply fstep_choking|]. apply fstep_upd, qstep_repd; [|apply choked_keep].
  rewrite get_upd_p. destruct (_ && _)%bool; exact Ed.
Qed.
Lemma fstep_reject fixed s p i b n : fstep (except p) s (fst (h_reject fixed s p i b n)).
Proof.
  unfold h_reject. destruct (_ || _); [apply fstep_close|].
  destruct (q_dl (get_p s p)) as [d|] eqn:Ed; [|apply fstep_refl]. destruct (negb _); [apply fstep_refl|].
  pose proof (rejected_keep (l_pd d) b n) as K. destruct (rejected (l_pd d) b n) as [pd' [|]]; [|apply fstep_close].
  apply fstep_upd, qstep_repd; assumption.
Qed.
Lemma fstep_connect s p f : fstep (except p) s (fst (h_connect s p f)).
Proof.
  unfold h_connect. destruct (q_present (get_p s p)) eqn:Ep; [apply fstep_bad|]. apply fstep_upd.
  split; [intros _; apply peer_ok_none; reflexivity|].
  (* a record that is not present is not closed: this is where [CP] is needed *)
  intros Hc. unfold CP; cbn. split; [discriminate|]. intros Hcl. rewrite (Hc Hcl) in Ep. discriminate.
Qed.

(* an accepted block extends the history by itself *)
Lemma got_nb_ok bls d b n good : dl_ok bls d ->
  let (pd', g) := got_nb (l_pd d) b n in
  match g with
  | GInvalid | GDuplicate => True
  | _ => dl_ok bls {| l_idx := l_idx d; l_af := l_af d; l_pd := pd'; l_good := l_good d && good; l_hist := l_hist d ++ [(b, good)] |}
  end.
Proof.
  intros (A & B & C & D). unfold got_nb.
  destruct (find_block (l_pd d) b n) eqn:Ef; cbn [negb]; [|exact I].
  destruct (zmem b (pd_done (l_pd d))) eqn:Ez; [exact I|].
  destruct (accept_ok _ _ _ D Ef Ez) as (_ & _ & Hn & Hs).
  (* requested or not, the downloader after the block is the same *)
  destruct (zmem b (pd_pending (l_pd d))).
  all: unfold dl_ok, DoneInv; cbn; rewrite forallb_app, map_app, A, B; cbn; rewrite Bool.andb_true_r; auto.
Qed.

Definition blocks_nodup (s : lst) : Prop := Forall (fun bl => NoDup (map bbeg bl)) (s_blocks s).
Definition covers (bl : list blk) (h : list (Z * bool)) : Prop :=
  NoDup (map fst h) /\ (forall b, In b (map bbeg bl) <-> In b (map fst h)).

Lemma finished_covers bls d : dl_ok bls d -> pd_finished (l_pd d) = true -> covers (nth (Z.to_nat (l_idx d)) bls []) (l_hist d).
Proof.
  intros (A & B & C & D) Hfin. pose proof (finished_all _ D Hfin) as Hall. destruct D as [D E].
  unfold covers. rewrite B, <- C. split; [exact D|]. intros b. split; [apply Hall|apply E].
Qed.

(* the block that completes a piece: the downloader goes, the piece is being written *)
Definition start_write (s : lst) (p i : Z) (d : ldl) : lst :=
  let s1 := upd_p s p (fun q => set_dl q None) in
  with_inhist (with_flags s1 (s_done s1) (setb (s_writing s1) (Z.to_nat i) true) (Some (p, i, l_good d))) (l_hist d).
Definition finishes (s : lst) (p i : Z) (s' : lst) : Prop :=
  exists d, s' = start_write s p i d /\ l_idx d = i /\ 0 <= i /\ pd_finished (l_pd d) = true /\
            (peer_ok (s_blocks s) (get_p s p) -> dl_ok (s_blocks s) d).

Lemma hstep_start_write s p i d : hstep (except p) s (start_write s p i d).
Proof.
  eapply hstep_trans; [exact (proj2 (fstep_upd s p (fun q => set_dl q None) (qstep_none _ _)))|]. apply hstep_peers; auto.
Qed.

Lemma h_piece_cases fixed s p i b n good :
  fstep (except p) s (fst (h_piece fixed s p i b n good)) \/ finishes s p i (fst (h_piece fixed s p i b n good)).
Proof.
  unfold h_piece. destruct (q_closed (get_p s p)) eqn:Ec; [left; apply fstep_refl|].
  destruct ((i <? 0) || (i >=? np_of s)) eqn:Ei; [left; apply fstep_close|].
  destruct (q_dl (get_p s p)) as [d|] eqn:Ed; [|left; apply fstep_refl].
  destruct (negb (l_idx d =? i)) eqn:Eidx; [left; apply fstep_refl|].
  pose proof (fun H : peer_ok (s_blocks s) (get_p s p) => got_nb_ok (s_blocks s) d b n good (proj1 H d Ed)) as Hok.
  destruct (got_nb (l_pd d) b n) as [pd' g].
  destruct g; [|left; apply fstep_close|left; apply fstep_refl|].
  (* there remain GOk and GNotRequested, the two answers with which the block is kept *)
  all: destruct (pd_finished pd') eqn:Efin.
  1,3: right; eexists; split; [reflexivity|]; cbn; split; [lia|split; [lia|split; [exact Efin|exact Hok]]].
  all: left; destruct (l_af d || negb (q_choking (get_p s p))); cbn [fst]; [eapply fstep_trans; [|apply fstep_do_request]|].
  all: apply fstep_upd, qstep_some; intros H; exact (conj Ec (Hok H)).
Qed.

(* every event but a write result touches only the peer it comes from, and changes the piece
   flags only when its block completes a piece *)
Lemma dispatch_cases fixed s code p a b c g bits :
  fstep (except p) s (fst (dispatch fixed s code p a b c g bits)) \/
  (s_inflight s = None /\ finishes s p a (fst (dispatch fixed s code p a b c g bits))) \/
  (code = 9 /\ fst (dispatch fixed s code p a b c g bits) = fst (h_write_pre s (z2b g))).
Proof.
  unfold dispatch.
  destruct (code =? 1). { left. unfold h_have. destruct (_ || _); [apply fstep_close|apply fstep_has]. }
  destruct (code =? 2). { left. unfold h_bits. destruct (z2b g); [apply fstep_close|apply fstep_has]. }
  destruct (code =? 3). { left. apply fstep_has. }
  destruct (code =? 4). { left. unfold h_allowed_fast. destruct (_ || _); [apply fstep_close|]. apply fstep_upd, qstep_same; reflexivity. }
  destruct (code =? 5); [left; apply fstep_unchoke|].
  destruct (code =? 6); [left; apply fstep_choke|].
  destruct (code =? 7); [left; apply fstep_reject|].
  destruct (code =? 8).
  { destruct (s_inflight s); [left; apply fstep_bad|]. destruct (h_piece_cases fixed s p a b c (z2b g)); auto. }
  destruct (code =? 9) eqn:E9. { right; right. split; [lia|reflexivity]. }
  destruct (code =? 10). { left. unfold h_snub. destruct (q_dl _); [destruct (q_choking _)|]; apply fstep_refl. }
  destruct (code =? 11); [left; apply fstep_close|].
  destruct (code =? 12); [left; apply fstep_connect|].
  destruct (code =? 13). { left. apply fstep_upd, qstep_same; destruct (q_reqq _ <? 0); reflexivity. }
  left. apply fstep_refl.
Qed.

(* the part of the invariant that reads the frame only: the block lists never change; what was written came
   from a good buffer covering its piece; a Done piece was verified at start or written; the write in flight
   is described by the ghost history; at most one piece is being written *)
Record FInv (s0 s : lst) : Prop := {
  fi_blocks : s_blocks s = s_blocks s0;
  fi_written : forall i g h, In (i, g, h) (s_written s) ->
      g = true /\ forallb snd h = true /\ covers (nth (Z.to_nat i) (s_blocks s0) []) h;
  fi_done : forall n, nth n (s_done s) false = true ->
      nth n (s_done s0) false = true \/ exists h, In (Z.of_nat n, true, h) (s_written s);
  fi_flight : forall src i g, s_inflight s = Some (src, i, g) ->
      g = forallb snd (s_inhist s) /\ covers (nth (Z.to_nat i) (s_blocks s0) []) (s_inhist s) /\ 0 <= i;
  fi_one : forall n, nth n (s_writing s) false = true -> exists src g, s_inflight s = Some (src, Z.of_nat n, g)
}.
Definition GInv (s0 s : lst) : Prop := peers_ok s /\ FInv s0 s.

Lemma finv_fields s0 s s' : s_blocks s' = s_blocks s -> s_written s' = s_written s -> s_done s' = s_done s ->
  s_inflight s' = s_inflight s -> s_inhist s' = s_inhist s -> s_writing s' = s_writing s -> FInv s0 s -> FInv s0 s'.
Proof. intros E1 E2 E3 E4 E5 E6 [A C D E F]. constructor; rewrite ?E1, ?E2, ?E3, ?E4, ?E5, ?E6; assumption. Qed.
Lemma finv_frame s0 s s' : frame s' = frame s -> FInv s0 s -> FInv s0 s'.
Proof.
  intros E. apply finv_fields; [exact (f_equal s_blocks E)|exact (f_equal s_written E)|exact (f_equal s_done E)|
    exact (f_equal s_inflight E)|exact (f_equal s_inhist E)|exact (f_equal s_writing E)].
Qed.

Lemma finv_start_write s0 s src i g h : FInv s0 s -> s_inflight s = None -> g = forallb snd h ->
  covers (nth (Z.to_nat i) (s_blocks s0) []) h -> 0 <= i ->
  FInv s0 (with_inhist (with_flags s (s_done s) (setb (s_writing s) (Z.to_nat i) true) (Some (src, i, g))) h).
Proof.
  intros [Gb Gw Gd Gf Go] Hnone Hg Hc Hi. constructor; cbn; try assumption.
  - intros src0 i0 g0 E. inversion E; subst. auto.
  - intros k Hk. apply nth_setb_true in Hk as [->|Hk]; [rewrite Z2Nat.id by lia; eauto|].
    destruct (Go k Hk) as (s1 & g1 & Hs). congruence.
Qed.

(* when the write result arrives nothing is being written any more *)
Lemma finv_end_write s0 s src i g : FInv s0 s -> s_inflight s = Some (src, i, g) ->
  FInv s0 (with_flags s (s_done s) (setb (s_writing s) (Z.to_nat i) false) None).
Proof.
  intros [Gb Gw Gd Gf Go] E. constructor; cbn; try assumption; [intros s1 i1 g1 H; discriminate|].
  intros k Hk. exfalso. apply nth_setb_false in Hk as [Ek Hk].
  destruct (Go k Hk) as (s1 & g1 & Hs). rewrite E in Hs. inversion Hs. lia.
Qed.

(* a step every peer survives as a peer move and that keeps the invariant; handlers compose by [sound_trans] *)
Definition sound (s0 s s' : lst) : Prop := hstep nobody s s' /\ (GInv s0 s -> GInv s0 s').

Lemma sound_refl s0 s : sound s0 s s.
Proof. split; [apply hstep_refl|auto]. Qed.
Lemma sound_trans s0 a b c : sound s0 a b -> sound s0 b c -> sound s0 a c.
Proof. intros [P1 G1] [P2 G2]. split; [eapply hstep_trans; eauto|auto]. Qed.
Lemma sound_hstep s0 s s' : hstep nobody s s' -> (FInv s0 s -> FInv s0 s') -> sound s0 s s'.
Proof. intros H Hf. split; [exact H|]. intros [Gp Gf]. split; [exact (hstep_peers_ok _ _ _ H Gp)|auto]. Qed.
Lemma sound_fstep P s0 s s' : fstep P s s' -> sound s0 s s'.
Proof. intros [E H]. apply sound_hstep; [exact (hstep_all _ _ _ H)|apply finv_frame, E]. Qed.

Lemma sound_finishes s0 s p i s' : s_inflight s = None -> finishes s p i s' -> sound s0 s s'.
Proof.
  intros Hn (d & -> & Hi & H0 & Hfin & Hd).
  pose proof (hstep_all _ _ _ (hstep_start_write s p i d)) as Hp.
  split; [exact Hp|]. intros [Gp Gf]. split; [exact (hstep_peers_ok _ _ _ Hp Gp)|].
  pose proof (frame_upd_p s p (fun q => set_dl q None)) as Ef. specialize (Hd (Gp p)).
  apply finv_start_write; [exact (finv_frame _ _ _ Ef Gf)|rewrite <- Hn; exact (f_equal s_inflight Ef)|apply Hd| |exact H0].
  rewrite <- (fi_blocks _ _ Gf), <- Hi. exact (finished_covers _ _ Hd Hfin).
Qed.

(* handlePieceWriteDone, up to the picker: each of its three outcomes is a chain of sound steps *)
Lemma sound_write_pre s0 s werr : sound s0 s (fst (h_write_pre s werr)).
Proof.
  unfold h_write_pre. destruct (s_inflight s) as [[[src i] good]|] eqn:E; [|apply (sound_fstep nobody), fstep_bad].
  set (sa := with_flags s (s_done s) (setb (s_writing s) (Z.to_nat i) false) None).
  assert (Ha : sound s0 s sa) by (apply sound_hstep; [apply hstep_peers; auto|intros Gf; exact (finv_end_write _ _ _ _ _ Gf E)]).
  destruct (good && werr); [|destruct good]; cbn [fst].
  - (* the disk refused the write *)
    apply (sound_trans _ _ sa _ Ha), sound_hstep; [|apply finv_fields; reflexivity].
    eapply hstep_map; try reflexivity. intros q. apply qstep_close.
  - (* written: the piece is Done and recorded, then its other downloaders are cancelled *)
    eapply sound_trans; [|apply (sound_fstep nobody), fstep_fold; intros s' x; apply (fstep_all x), fstep_upd].
    + apply sound_hstep; [apply hstep_peers; auto|]. intros Gf. destruct (fi_flight _ _ Gf _ _ _ E) as (Hg & Hcov & Hi).
      destruct (finv_end_write _ _ _ _ _ Gf E) as [Gb Gw Gd Gf' Go]. constructor; cbn; try assumption.
      * intros i0 g0 h0 Hin. apply in_app_or in Hin as [Hin|[Hin|[]]]; [apply Gw; exact Hin|]. inversion Hin; subst. auto.
      * intros k Hk. apply nth_setb_true in Hk as [->|Hk].
        -- right. exists (s_inhist s). apply in_or_app. right. left. rewrite Z2Nat.id by lia. reflexivity.
        -- destruct (Gd k Hk) as [H0|(h & Hh)]; [left; exact H0|right; exists h; apply in_or_app; left; exact Hh].
    + destruct (q_dl _); [|apply qstep_refl]. eapply qstep_trans; [apply qstep_none|apply qstep_frames].
  - (* hash mismatch: the source is closed, then banned *)
    apply (sound_trans _ _ sa _ Ha). eapply sound_trans; [exact (sound_fstep _ _ _ _ (fstep_close sa src))|].
    apply sound_hstep; [apply hstep_peers; auto|]. apply finv_fields; try reflexivity.
    exact (eq_sym (f_equal s_inflight (frame_upd_p sa src close_q))).
Qed.

Lemma sound_write_post s0 s i : sound s0 s (h_write_post s i).
Proof.
  unfold h_write_post. set (s1 := fold_left _ _ _). apply (sound_trans _ _ s1).
  - apply (sound_fstep nobody), fstep_fold. intros s' x. apply (fstep_all x). destruct (open_q _); [|apply fstep_refl].
    destruct (nthb _ i); [apply fstep_interest|]. eapply fstep_trans; [apply fstep_interest|apply fstep_upd, qstep_frames].
  - cbv zeta. destruct (all_true _); [|apply sound_refl]. apply sound_hstep; [|apply finv_fields; reflexivity].
    eapply hstep_map; try reflexivity. intros q. cbv beta. destruct (open_q q); [apply qstep_close|apply qstep_refl].
Qed.

Lemma sound_dispatch fixed s0 s code p a b c g bits : sound s0 s (fst (dispatch fixed s code p a b c g bits)).
Proof.
  destruct (dispatch_cases fixed s code p a b c g bits) as [H|[[Hn H]|[_ ->]]].
  - exact (sound_fstep _ _ _ _ H).
  - exact (sound_finishes _ _ _ _ _ Hn H).
  - apply sound_write_pre.
Qed.

Lemma sound_lstep fixed s0 s ev bits asg : sound s0 s (fst (lstep fixed s ev bits asg)).
Proof.
  unfold lstep. apply (sound_trans _ _ (clear_frames s)); [exact (sound_fstep _ _ _ _ (fstep_clear s))|].
  destruct ev as [|code [|p [|a [|b [|c [|g [|x r]]]]]]]; try exact (sound_fstep nobody _ _ _ (fstep_bad _ _ _)).
  pose proof (sound_dispatch fixed s0 (clear_frames s) code p a b c g bits) as H1.
  destruct (dispatch fixed (clear_frames s) code p a b c g bits) as [s1 tried]. cbn [fst] in *.
  eapply sound_trans; [exact H1|]. eapply sound_trans; [|exact (sound_fstep _ _ _ _ (fstep_post_check _))].
  eapply sound_trans; [apply (sound_fstep nobody), fstep_assign|].
  destruct ((code =? 9) && negb (z2b g)); [|apply sound_refl].
  destruct (s_inflight (clear_frames s)) as [[[src i] [|]]|]; [apply sound_write_post|apply sound_refl..].
Qed.

Lemma lstep_hstep fixed s ev bits asg : hstep nobody s (fst (lstep fixed s ev bits asg)).
Proof. exact (proj1 (sound_lstep fixed s s ev bits asg)). Qed.

(* every state an event history can reach (observed assignments and frame checks included) *)
Inductive reach (fixed : bool) (s0 : lst) : lst -> Prop :=
| reach_init : reach fixed s0 s0
| reach_step s ev bits asg : reach fixed s0 s -> reach fixed s0 (fst (lstep fixed s ev bits asg))
| reach_bad s w : reach fixed s0 s -> reach fixed s0 (with_bad s w).

Definition init_ok (s0 : lst) : Prop :=
  blocks_nodup s0 /\ s_inflight s0 = None /\ s_written s0 = [] /\ length (s_writing s0) = length (s_done s0) /\
  Forall (fun b => b = false) (s_writing s0) /\ Forall (fun q => q_dl q = None) (s_peers s0).

(* of [init_ok] only this much is needed: nothing is in flight or written yet, no peer downloads *)
Theorem reach_inv fixed s0 s : s_inflight s0 = None -> s_written s0 = [] -> Forall (fun b => b = false) (s_writing s0) ->
  Forall (fun q => q_dl q = None) (s_peers s0) -> reach fixed s0 s -> GInv s0 s.
Proof.
  intros Hi Hw Hwf Hp Hr. induction Hr as [|s ev bits asg Hr IH|s w Hr IH].
  - split.
    + intros r. apply peer_ok_none. exact (nth_Forall _ _ default_peer (Z.to_nat r) Hp eq_refl).
    + constructor; auto.
      * rewrite Hw. intros i g h [].
      * rewrite Hi. intros; discriminate.
      * intros n Hn. rewrite (nth_Forall _ _ false n Hwf eq_refl) in Hn. discriminate.
  - exact (proj2 (sound_lstep fixed s0 s ev bits asg) IH).
  - exact (proj2 (sound_fstep nobody s0 _ _ (fstep_bad _ s w)) IH).
Qed.

Theorem session_integrity fixed s0 s : init_ok s0 -> reach fixed s0 s ->
  (forall i g h, In (i, g, h) (s_written s) ->
     g = true /\ forallb snd h = true /\ covers (nth (Z.to_nat i) (s_blocks s0) []) h) /\
  (forall n, nth n (s_done s) false = true ->
     nth n (s_done s0) false = true \/ exists h, In (Z.of_nat n, true, h) (s_written s)) /\
  (forall n m, nth n (s_writing s) false = true -> nth m (s_writing s) false = true -> n = m) /\
  (forall r, q_closed (get_p s r) = true -> q_dl (get_p s r) = None).
Proof.
  intros (_ & Hi & Hw & _ & Hwf & Hp) Hr. destruct (reach_inv fixed s0 s Hi Hw Hwf Hp Hr) as [Gp [_ Gw Gd _ Go]].
  split; [exact Gw|split; [exact Gd|split]].
  - intros n m Hn Hm. destruct (Go n Hn) as (s1 & g1 & E1). destruct (Go m Hm) as (s2 & g2 & E2).
    rewrite E1 in E2. inversion E2. lia.
  - intros r. exact (proj2 (Gp r)).
Qed.

(* closed peers stay closed (and, by the second clause of [peer_ok], never download again) *)
Theorem closed_stays fixed s ev bits asg r : CP (get_p s r) -> q_closed (get_p s r) = true ->
  CP (get_p (fst (lstep fixed s ev bits asg)) r) /\ q_closed (get_p (fst (lstep fixed s ev bits asg)) r) = true.
Proof.
  intros Hc Hcl. destruct (proj2 (hs_peer _ _ _ (lstep_hstep fixed s ev bits asg) r) Hc) as [A B]. auto.
Qed.

Lemma reach_cp fixed s0 s : (forall r, CP (get_p s0 r)) -> reach fixed s0 s -> forall r, CP (get_p s r).
Proof.
  intros H0 Hr. induction Hr as [|s ev bits asg Hr IH|s w Hr IH]; intros r; [apply H0| |exact (IH r)].
  exact (proj1 (proj2 (hs_peer _ _ _ (lstep_hstep fixed s ev bits asg) r) (IH r))).
Qed.

(* the validation flag is sticky: a history whose last state is unflagged was validated throughout *)
Theorem bad_sticky fixed s ev bits asg : s_bad (fst (lstep fixed s ev bits asg)) = 0 -> s_bad s = 0.
Proof. exact (hs_bad _ _ _ (lstep_hstep fixed s ev bits asg)). Qed.

(* the write result of a buffer that fails the hash check: nothing is written or marked, the source
   is closed and banned *)
Lemma write_pre_bad s src i werr : s_inflight s = Some (src, i, false) -> q_present (get_p s src) = true -> 0 <= src ->
  let s' := fst (h_write_pre s werr) in
  s_written s' = s_written s /\ s_done s' = s_done s /\ In src (s_banned s') /\
  q_closed (get_p s' src) = true /\ CP (get_p s' src).
Proof.
  intros Hin Hp H0. unfold h_write_pre. rewrite Hin. cbn [fst andb].
  set (sa := with_flags s (s_done s) (setb (s_writing s) (Z.to_nat i) false) None).
  pose proof (frame_upd_p sa src close_q) as Ef.
  split; [exact (f_equal s_written Ef)|]. split; [exact (f_equal s_done Ef)|]. split.
  - cbn. destruct (zmem src _) eqn:Ez; [apply zmem_true; exact Ez|apply in_or_app; right; left; reflexivity].
  - change (get_p _ src) with (get_p (upd_p sa src close_q) src). rewrite get_upd_p, Nat.eqb_refl.
    replace (0 <=? src) with true by lia. cbn [andb]. change (get_p sa src) with (get_p s src).
    destruct (Nat.ltb_spec (Z.to_nat src) (length (s_peers sa))) as [Hl|Hl].
    + unfold close_q, CP. rewrite Hp. cbn. auto.
    + unfold get_p in Hp. rewrite nth_overflow in Hp by exact Hl. discriminate.
Qed.

Theorem bad_buffer_step fixed s src i p a b c g bits asg :
  s_inflight s = Some (src, i, false) -> q_present (get_p s src) = true -> 0 <= src ->
  let s' := fst (lstep fixed s [9; p; a; b; c; g] bits asg) in
  s_written s' = s_written s /\ s_done s' = s_done s /\ In src (s_banned s') /\ q_closed (get_p s' src) = true.
Proof.
  intros Hin Hpr Hsrc. cbn zeta. unfold lstep.
  change (dispatch fixed (clear_frames s) 9 p a b c g bits) with (h_write_pre (clear_frames s) (z2b g)).
  assert (Hpr0 : q_present (get_p (clear_frames s) src) = true) by (unfold clear_frames; rewrite get_p_map; [exact Hpr|reflexivity]).
  destruct (write_pre_bad (clear_frames s) src i (z2b g) Hin Hpr0 Hsrc) as (A & B & C & Dc & Dp).
  destruct (h_write_pre (clear_frames s) (z2b g)) as [s1 tried]. cbn [fst] in *.
  change (s_inflight (clear_frames s)) with (s_inflight s). rewrite Hin.
  (* the buffer was bad: both branches of the test for a completed write are [assign] *)
  set (X := assign _ _ _). replace (if _ && _ then X else X) with X by (destruct (_ && _); reflexivity).
  destruct (fstep_trans _ _ X _ (fstep_assign s1 _ asg) (fstep_post_check X)) as [Ef Hp].
  split; [exact (eq_trans (f_equal s_written Ef) A)|]. split; [exact (eq_trans (f_equal s_done Ef) B)|].
  split; [exact (eq_ind_r (In src) C (f_equal s_banned Ef))|].
  exact (proj2 (proj2 (hs_peer _ _ _ Hp src) Dp) Dc).
Qed.

(* the states the case codec walks through are reachable states *)
Lemma step_case_reach fixed np P s0 s l s' o rest : reach fixed s0 s -> step_case fixed np P s l = Some (s', o, rest) -> reach fixed s0 s'.
Proof.
  intros Hr H. unfold step_case in H. destruct (rdn 6 l) as [[ev r1]|]; [|discriminate].
  destruct (rdn np r1) as [[bits r2]|]; [|discriminate]. destruct (rdn P r2) as [[asg r3]|]; [|discriminate].
  pose proof (reach_step fixed s0 s ev (map z2b bits) asg Hr) as Hs1.
  destruct (lstep fixed s ev (map z2b bits) asg) as [s1 o1].
  destruct (check_frames (s_peers s) (s_peers s1) 0 r3) as [bad r4]. inversion H; subst.
  destruct (bad =? 0); [exact Hs1|apply reach_bad; exact Hs1].
Qed.
Lemma last_state_reach fixed np P s0 : forall fuel s l, reach fixed s0 s -> reach fixed s0 (last_state fixed fuel np P s l).
Proof.
  induction fuel as [|f IH]; intros s l Hr; cbn [last_state]; [exact Hr|].
  assert (Hgen : reach fixed s0 match step_case fixed np P s l with Some (s', _, rest) => last_state fixed f np P s' rest | None => s end).
  { destruct (step_case fixed np P s l) as [[[s' o] rest]|] eqn:E; [|exact Hr]. apply IH. eapply step_case_reach; eauto. }
  (* [last_state] tests for the literal list [-1; _]; every other shape of [l] is the general branch *)
  destruct l as [|x r]; [exact Hgen|]. destruct x as [|px|px]; try exact Hgen.
  destruct px; try exact Hgen. destruct r as [|z r]; [exact Hgen|]. destruct r; [exact Hr|exact Hgen].
Qed.

Lemma first_such_none f l : first_such f l = None -> forall x, In x l -> f x = false.
Proof.
  unfold first_such. intros H x Hx. apply not_true_is_false. intros Ef.
  destruct (filter f l) eqn:E; [|discriminate]. apply (in_nil (a := x)). rewrite <- E. apply filter_In. auto.
Qed.

Lemma elig_default s p : (length (s_peers s) <= Z.to_nat p)%nat -> elig s p = false.
Proof.
  intros H. unfold elig, get_p. rewrite nth_overflow by exact H. cbn. rewrite !Bool.andb_false_r. reflexivity.
Qed.
Lemma elig_norm s p : elig s p = elig s (Z.of_nat (Z.to_nat p)).
Proof. unfold elig, get_p. rewrite Nat2Z.id. reflexivity. Qed.

(* an unflagged [post_check] found nothing and changed nothing *)
Lemma post_check_ok s : s_bad (post_check s) = 0 ->
  post_check s = s /\ (forall p, elig s p = false) /\ (forall i, 0 <= i < np_of s -> over_dup s i = false).
Proof.
  unfold post_check. intros H.
  destruct (first_such (elig s) (peer_ids s)) as [p0|] eqn:E1; [apply with_bad_zero in H; lia|].
  destruct (first_such (over_dup s) _) as [i0|] eqn:E2; [apply with_bad_zero in H; lia|].
  split; [reflexivity|]. split.
  - intros p. rewrite elig_norm. destruct (Nat.lt_ge_cases (Z.to_nat p) (length (s_peers s))) as [Hlt|Hge].
    + apply (first_such_none _ _ E1). unfold peer_ids. apply in_map. apply in_seq. lia.
    + apply elig_default. rewrite Nat2Z.id. exact Hge.
  - intros i Hi. apply (first_such_none _ _ E2). unfold np_of, zlen in Hi.
    replace i with (Z.of_nat (Z.to_nat i)) by lia. apply in_map. apply in_seq. lia.
Qed.

(* C10 / C09 on the state after every validated handler *)
Theorem step_no_idle fixed s ev bits asg : let s' := fst (lstep fixed s ev bits asg) in
  s_bad s' = 0 -> (forall p, elig s' p = false) /\ (forall i, 0 <= i < np_of s' -> over_dup s' i = false).
Proof.
  cbn zeta. unfold lstep. destruct ev as [|code [|p [|a [|b [|c [|g [|x r]]]]]]];
    try (cbn [fst]; intros H; apply with_bad_zero in H; lia).
  destruct (dispatch fixed (clear_frames s) code p a b c g bits) as [s1 tried]. cbn [fst].
  intros H. destruct (post_check_ok _ H) as [-> K]. exact K.
Qed.
