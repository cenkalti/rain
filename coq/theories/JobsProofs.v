(* C02: createJobs (internal/urldownloader/job.go) -- the HTTP range jobs of a web-seed download
   tile exactly the bytes of the pieces [b, e), in order, each byte once; no job is empty.  For
   every piece list whose sections chain through the files (which NewPieces guarantees). *)
From RainV Require Import Lib Geometry SectionIO PiecesProofs.

(* byte addresses (file, padding flag, offset in file) of a run *)
Definition srun (f : nat) (p : bool) (o n : Z) : list (nat * bool * Z) :=
  map (fun k => (f, p, o + Z.of_nat k)) (seq 0 (Z.to_nat n)).
Definition sec_addrs (s : section) := srun (sfile s) (spad s) (soff s) (slen s).
Definition job_addrs (j : job) := srun (jfile j) (jpad j) (jbegin j) (jlen j).

Lemma seq_shift_map {A} n : forall a (g : nat -> A), map g (seq a n) = map (fun k => g (a + k)%nat) (seq 0 n).
Proof.
  induction a as [|a IH]; intros g; [reflexivity|].
  rewrite <- seq_shift, map_map. apply (IH (fun k => g (S k))).
Qed.

Lemma srun_app f p o n1 n2 : 0 <= n1 -> 0 <= n2 -> srun f p o (n1 + n2) = srun f p o n1 ++ srun f p (o + n1) n2.
Proof.
  intros H1 H2. unfold srun. rewrite Z2Nat.inj_add by assumption. rewrite seq_app, map_app. f_equal.
  cbn [Nat.add]. rewrite seq_shift_map. apply map_ext. intros k. f_equal. lia.
Qed.

(* one section of the loop of createJobs, files compared by index, not at the first section *)
Definition step' (st : jst) (s : section) : jst := cj_step Nat.eqb false st s.

(* the section list continues a file where the previous section of that file ended *)
Fixpoint chained (last : option (nat * Z)) (ss : list section) : Prop :=
  match ss with
  | [] => True
  | s :: r => (match last with Some (f, e) => sfile s = f -> soff s = e | None => True end) /\ 0 <= slen s /\
              chained (Some (sfile s, soff s + slen s)) r
  end.

(* the loop state of createJobs: addresses emitted so far, where the open job ends, no emitted job empty *)
Definition cur_addrs (st : jst) := match curjob st with Some j => job_addrs j | None => [] end.
Definition all_addrs (st : jst) := flat_map job_addrs (jobs st) ++ cur_addrs st.
Definition last_of (st : jst) := match curjob st with Some j => Some (jfile j, jbegin j + jlen j) | None => None end.
Definition jst_ok (st : jst) := Forall (fun j => 0 < jlen j) (jobs st) /\ match curjob st with Some j => 0 <= jlen j | None => True end.

Lemma srun_nil f p o n : n <= 0 -> srun f p o n = [].
Proof. intros H. unfold srun. replace (Z.to_nat n) with 0%nat by lia. reflexivity. Qed.

(* a finished job is emitted unless it is empty, here and at the end of createJobs *)
Lemma flush_addrs js j :
  flat_map job_addrs (if jlen j >? 0 then js ++ [j] else js) = flat_map job_addrs js ++ job_addrs j.
Proof.
  destruct (jlen j >? 0) eqn:E.
  - rewrite flat_map_app. cbn [flat_map]. rewrite app_nil_r. reflexivity.
  - unfold job_addrs. rewrite srun_nil, app_nil_r by lia. reflexivity.
Qed.

Lemma flush_pos js j : Forall (fun j => 0 < jlen j) js ->
  Forall (fun j => 0 < jlen j) (if jlen j >? 0 then js ++ [j] else js).
Proof.
  intros Hj. destruct (jlen j >? 0) eqn:E; [|exact Hj].
  apply Forall_app. split; [exact Hj|]. constructor; [lia|constructor].
Qed.

Lemma step_ok st s : jst_ok st ->
  (match last_of st with Some (f, e) => sfile s = f -> soff s = e | None => True end) -> 0 <= slen s ->
  jst_ok (step' st s) /\ all_addrs (step' st s) = all_addrs st ++ sec_addrs s /\ last_of (step' st s) = Some (sfile s, soff s + slen s).
Proof.
  intros [Hj Hc] Hl Hs. unfold step', cj_step, all_addrs, cur_addrs, last_of, jst_ok in *.
  destruct (curjob st) as [j|] eqn:Ec.
  - destruct (Nat.eqb (sfile s) (jfile j) && Bool.eqb (spad s) (jpad j)) eqn:Em; cbn [jobs curjob].
    + apply andb_prop in Em as [E1 E2]. apply Nat.eqb_eq in E1. apply Bool.eqb_prop in E2. specialize (Hl E1).
      split; [split; [exact Hj|cbn [jlen]; lia]|]. split.
      * unfold job_addrs. cbn [jfile jpad jbegin jlen]. rewrite srun_app by assumption. rewrite <- app_assoc. do 2 f_equal.
        unfold sec_addrs. rewrite E1, E2, Hl. reflexivity.
      * cbn [jfile jbegin jlen]. rewrite E1, Hl. f_equal. f_equal. lia.
    + split; [|split; [|reflexivity]].
      * split; [apply flush_pos; assumption|cbn [job_of jlen]; exact Hs].
      * rewrite flush_addrs. reflexivity.
  - cbn [jobs curjob]. split; [split; [exact Hj|cbn [job_of jlen]; exact Hs]|]. split; [|reflexivity].
    change (job_addrs (job_of s)) with (sec_addrs s). rewrite app_nil_r. reflexivity.
Qed.

Lemma fold_ok : forall ss st, jst_ok st -> chained (last_of st) ss ->
  jst_ok (fold_left step' ss st) /\ all_addrs (fold_left step' ss st) = all_addrs st ++ flat_map sec_addrs ss.
Proof.
  induction ss as [|s r IH]; intros st Hok Hch; cbn [fold_left flat_map].
  - split; [exact Hok|rewrite app_nil_r; reflexivity].
  - cbn [chained] in Hch. destruct Hch as (H1 & H2 & H3). destruct (step_ok st s Hok H1 H2) as (A & B & C).
    rewrite <- C in H3. destruct (IH (step' st s) A H3) as (A' & B'). split; [exact A'|]. rewrite B', B, <- app_assoc. reflexivity.
Qed.

(* the "first section of the first piece" special case of the Go loop changes nothing *)
Lemma cj_step_first st s : curjob st = None -> cj_step Nat.eqb true st s = cj_step Nat.eqb false st s.
Proof. intros H. unfold cj_step. rewrite H. reflexivity. Qed.

Lemma cj_secs_fold : forall secs i j st, (curjob st = None \/ (Nat.eqb i 0 && Nat.eqb j 0) = false) ->
  cj_secs Nat.eqb i j st secs = fold_left step' secs st.
Proof.
  induction secs as [|s r IH]; intros i j st H; cbn [cj_secs fold_left]; [reflexivity|].
  assert (E : cj_step Nat.eqb (Nat.eqb i 0 && Nat.eqb j 0) st s = step' st s).
  { destruct (Nat.eqb i 0 && Nat.eqb j 0) eqn:Ef; [|reflexivity]. destruct H as [H|H]; [apply cj_step_first; exact H|discriminate]. }
  rewrite E. apply IH. right. cbn [Nat.eqb]. apply andb_false_r.
Qed.

Lemma cj_pieces_fold : forall ps i st, (curjob st = None \/ i <> 0%nat) ->
  cj_pieces Nat.eqb i st ps = fold_left step' (flat_map psecs ps) st.
Proof.
  induction ps as [|p r IH]; intros i st H; cbn [cj_pieces flat_map]; [reflexivity|].
  rewrite fold_left_app. rewrite cj_secs_fold.
  - apply IH. right. lia.
  - destruct H as [H|H]; [left; exact H|right]. apply Nat.eqb_neq in H. rewrite H. reflexivity.
Qed.

(* createJobs: for every piece list and every range [b, e) whose sections chain, the jobs in
   order enumerate exactly the byte addresses of those sections in order, and no job is empty.
   Files are told apart by index ([Nat.eqb]); the Go code compares names, which are distinct (C07). *)
Theorem create_jobs_cover ps b e :
  let secs := flat_map psecs (firstn (e - b) (skipn b ps)) in
  chained None secs ->
  flat_map job_addrs (create_jobs Nat.eqb ps b e) = flat_map sec_addrs secs /\
  Forall (fun j => 0 < jlen j) (create_jobs Nat.eqb ps b e).
Proof.
  intros secs Hch. unfold create_jobs. destruct (Nat.eqb_spec b e) as [<-|_].
  - unfold secs. rewrite Nat.sub_diag. cbn [firstn flat_map]. split; [reflexivity|constructor].
  - rewrite cj_pieces_fold by (left; reflexivity). fold secs.
    set (st0 := {| jobs := []; curjob := None |}).
    assert (Hok : jst_ok st0) by (split; [constructor|exact I]).
    destruct (fold_ok secs st0 Hok Hch) as ((A1 & A2) & B). set (st := fold_left step' secs st0) in *.
    unfold all_addrs, cur_addrs in B. cbn [st0 jobs curjob flat_map app] in B.
    destruct (curjob st) as [j|] eqn:Ec.
    + split; [rewrite flush_addrs; exact B|apply flush_pos; assumption].
    + rewrite app_nil_r in B. split; assumption.
Qed.

(* NewPieces' chain is such a list, and so is every contiguous range of its pieces *)
Lemma chain_chained fs : forall ss a b last, chain_ok fs a ss = Some b ->
  (match last with Some (f, e) => prefix_sum fs f + e = a | None => True end) -> chained last ss.
Proof.
  induction ss as [|s r IH]; intros a b last H Hl; cbn [chained]; [exact I|].
  apply chain_ok_cons in H as ((f & _ & _ & Hs & _) & Ha & H). unfold abs_start in Ha.
  split; [|split; [exact Hs|]].
  - destruct last as [[f0 e0]|]; [|exact I]. intros Hf. subst f0. lia.
  - apply (IH (a + slen s) b); [exact H|]. lia.
Qed.

Theorem jobs_cover_pieces fs ps L b e : chain_ok fs 0 (flat_map psecs ps) = Some L ->
  let secs := flat_map psecs (firstn (e - b) (skipn b ps)) in
  flat_map job_addrs (create_jobs Nat.eqb ps b e) = flat_map sec_addrs secs /\
  Forall (fun j => 0 < jlen j) (create_jobs Nat.eqb ps b e).
Proof.
  intros H secs. apply create_jobs_cover. fold secs.
  rewrite <- (firstn_skipn b ps) in H. rewrite flat_map_app in H. apply chain_ok_app_inv in H as (m & _ & H).
  rewrite <- (firstn_skipn (e - b) (skipn b ps)) in H. rewrite flat_map_app in H. apply chain_ok_app_inv in H as (m2 & H & _).
  eapply chain_chained; [exact H|exact I].
Qed.

Example jobs_cover_nonvacuous :
  let ps := [ {| plength := 4; psecs := [ {| sfile := 0; soff := 0; slen := 3; spad := false |}; {| sfile := 1; soff := 0; slen := 1; spad := true |} ] |};
              {| plength := 4; psecs := [ {| sfile := 1; soff := 1; slen := 1; spad := true |}; {| sfile := 2; soff := 0; slen := 0; spad := false |};
                                          {| sfile := 3; soff := 0; slen := 3; spad := false |} ] |} ] in
  chained None (flat_map psecs ps) /\ length (create_jobs Nat.eqb ps 0 2) = 3%nat.
Proof. cbn. repeat split; try lia; intros; try lia; try discriminate. Qed.
