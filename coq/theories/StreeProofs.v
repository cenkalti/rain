(* The segment tree answers exactly "v lies in some range", for every list of ranges. *)
From RainV Require Import Lib Stree.

(* [R] holds from every element to every later one *)
Fixpoint ordered {A} (R : A -> A -> Prop) (l : list A) : Prop :=
  match l with
  | [] => True
  | x :: r => (forall y, In y r -> R x y) /\ ordered R r
  end.

Lemma ordered_app {A} (R : A -> A -> Prop) a b :
  ordered R (a ++ b) <-> ordered R a /\ ordered R b /\ forall x y, In x a -> In y b -> R x y.
Proof.
  induction a as [|z a IH]; cbn [app ordered In]; [tauto|]. rewrite IH. split.
  - intros (H1 & H2 & H3 & H4). repeat split; [intros y Hy; apply H1, in_or_app; left; exact Hy|assumption..|].
    intros x y [<-|Hx] Hy; [apply H1, in_or_app; right; exact Hy|apply H4; assumption].
  - intros ((H1 & H2) & H3 & H4). repeat split; [|assumption..|intros x y Hx; apply H4; right; exact Hx].
    intros y Hy. apply in_app_or in Hy as [Hy|Hy]; [apply H1, Hy|apply H4; [left; reflexivity|exact Hy]].
Qed.

Lemma insert_sorted_in x l y : In y (insert_sorted x l) <-> y = x \/ In y l.
Proof.
  induction l as [|z r IH]; cbn [insert_sorted In]; [intuition congruence|].
  destruct (x <=? z); cbn [In]; [intuition congruence|]. rewrite IH. tauto.
Qed.

Lemma insert_sorted_sorted x l : ordered Z.le l -> ordered Z.le (insert_sorted x l).
Proof.
  induction l as [|z r IH]; intros H; cbn [insert_sorted]; [split; [intros y []|exact I]|].
  destruct H as [Hz Hr]. destruct (x <=? z) eqn:E; cbn [ordered].
  - split; [|split; assumption]. intros y [<-|Hy]; [lia|]. specialize (Hz _ Hy). lia.
  - split; [|apply IH; assumption]. intros y Hy. apply insert_sorted_in in Hy as [->|Hy]; [lia|auto].
Qed.

Lemma sort_in l y : In y (sort l) <-> In y l.
Proof.
  induction l as [|x r IH]; cbn [sort fold_right In]; [tauto|].
  fold (sort r). rewrite insert_sorted_in, IH. intuition congruence.
Qed.

Lemma sort_sorted l : ordered Z.le (sort l).
Proof. induction l as [|x r IH]; cbn [sort fold_right]; [exact I|]. apply insert_sorted_sorted. exact IH. Qed.

(* after p, dedup_go drops the copies of p and of each later element of a sorted list *)
Lemma dedup_go_spec : forall l p, ordered Z.le (p :: l) ->
  (forall x, In x (p :: dedup_go p l) <-> In x (p :: l)) /\ ordered Z.lt (p :: dedup_go p l).
Proof.
  induction l as [|z r IH]; intros p Hs; cbn [dedup_go]; [cbn; intuition|].
  destruct Hs as (Hp & Hz & Hr). pose proof (Hp z (or_introl eq_refl)) as Hpz. destruct (Z.eqb_spec z p) as [->|E].
  - destruct (IH p) as (H1 & H2); [split; [intros y Hy; apply Hp; right; exact Hy|exact Hr]|].
    split; [|exact H2]. intros x. rewrite H1. cbn [In]. tauto.
  - destruct (IH z (conj Hz Hr)) as (H1 & H2). split; [intros x; apply or_iff_compat_l, H1|].
    split; [|exact H2]. intros y Hy. apply H1 in Hy as [<-|Hy]; [lia|]. specialize (Hz _ Hy). lia.
Qed.

Lemma dedup_spec l : (forall x, In x (dedup l) <-> In x l) /\ ordered Z.lt (dedup l).
Proof.
  unfold dedup. pose proof (sort_sorted l) as Hs. pose proof (sort_in l) as Hin.
  destruct (sort l) as [|x r]; [split; [exact Hin|exact I]|].
  (* the first "previous" value x+1 (wrapping) differs from x, so x itself is kept *)
  cbn [dedup_go]. destruct (Z.eqb_spec x ((x + 1) mod two32s)) as [Ex|_].
  { unfold two32s in Ex. Z.div_mod_to_equations. lia. }
  destruct (dedup_go_spec r x Hs) as (H1 & H2).
  split; [|exact H2]. intros y. rewrite H1. apply Hin.
Qed.

(* [v] lies in the closed segment [s] *)
Definition inseg (s : seg) (v : Z) : Prop := sfrom s <= v <= sto s.

Lemma ordered_lt_head q r x : ordered Z.lt (q :: r) -> In x (q :: r) -> q <= x.
Proof. intros [Hq _] [<-|Hx]; [lia|]. specialize (Hq _ Hx). lia. Qed.

Lemma elementary_cons2 p q r : elementary (p :: q :: r) =
  {| sfrom := p; sto := p |} :: {| sfrom := p; sto := q |} :: elementary (q :: r).
Proof. reflexivity. Qed.

(* between two endpoints a <= v <= b some leaf contains v and stays within [a, b]: the point leaf
   of v if v is an endpoint, else the gap leaf around it *)
Lemma elementary_cover : forall es a b v, ordered Z.lt es -> In a es -> In b es -> a <= v <= b ->
  exists l, In l (elementary es) /\ inseg l v /\ a <= sfrom l /\ sto l <= b.
Proof.
  unfold inseg. induction es as [|p [|q r] IH]; intros a b v Hs Ha Hb Hv; [destruct Ha| |].
  - destruct Ha as [<-|[]], Hb as [<-|[]]. exists {| sfrom := p; sto := p |}. cbn. intuition lia.
  - rewrite elementary_cons2. destruct Hs as [Hp Hs]. specialize (Hp q (or_introl eq_refl)).
    pose proof (fun x => ordered_lt_head q r x Hs) as Hq.
    destruct (Z_lt_le_dec v q) as [Hlt|Hge].
    + destruct Ha as [<-|Ha]; [|apply Hq in Ha; lia].
      destruct (Z.eq_dec v p) as [->|Hne].
      * exists {| sfrom := p; sto := p |}. cbn. intuition lia.
      * destruct Hb as [<-|Hb]; [lia|apply Hq in Hb]. exists {| sfrom := p; sto := q |}. cbn. intuition lia.
    + destruct Hb as [<-|Hb]; [lia|].
      assert (Ha' : exists a', In a' (q :: r) /\ a <= a' <= v).
      { destruct Ha as [<-|Ha]; [exists q|exists a]; cbn [In]; intuition lia. }
      destruct Ha' as (a' & Ha' & Haa).
      destruct (IH a' b v Hs Ha' Hb) as (l & Hl & Hlv & Hal & Hlb); [lia|].
      exists l. cbn [In]. intuition lia.
Qed.

(* the order of the leaf list: from and to both grow *)
Definition seg_le (l l' : seg) : Prop := sfrom l <= sfrom l' /\ sto l <= sto l'.

Lemma elementary_ge : forall r p l, ordered Z.lt (p :: r) -> In l (elementary (p :: r)) ->
  p <= sfrom l /\ p <= sto l.
Proof.
  induction r as [|q r IH]; intros p l Hs Hl; [destruct Hl as [<-|[]]; cbn; lia|].
  rewrite elementary_cons2 in Hl. destruct Hs as [Hp Hs]. specialize (Hp q (or_introl eq_refl)).
  destruct Hl as [<-|[<-|Hl]]; [cbn; lia..|]. destruct (IH _ _ Hs Hl). lia.
Qed.

Lemma elementary_mono : forall es, ordered Z.lt es -> ordered seg_le (elementary es).
Proof.
  induction es as [|p [|q r] IH]; intros Hs; [exact I| |].
  - cbn. split; [intros l' []|exact I].
  - rewrite elementary_cons2. destruct Hs as [Hp Hs]. specialize (Hp q (or_introl eq_refl)).
    pose proof (fun l' => elementary_ge r q l' Hs) as Hrest.
    unfold seg_le. cbn [ordered sfrom sto]. split; [|split; [|apply IH; exact Hs]].
    + intros l' [<-|Hl']; [cbn; lia|]. specialize (Hrest _ Hl'). lia.
    + intros l' Hl'. specialize (Hrest _ Hl'). lia.
Qed.

(* [t] is a tree over the leaf segments [ls], in order, each inner node spanning its leaves *)
Inductive shape : tree -> list seg -> Prop :=
| shape_leaf l ov : shape (Leaf l ov) [l]
| shape_node ov tl tr ls1 ls2 : ls1 <> [] -> ls2 <> [] -> shape tl ls1 -> shape tr ls2 ->
    shape (Node (hull (ls1 ++ ls2)) ov tl tr) (ls1 ++ ls2).

Lemma shape_tseg t ls : shape t ls -> tseg t = hull ls.
Proof. destruct 1 as [l ov|]; [destruct l; reflexivity|reflexivity]. Qed.

Lemma shape_nonempty t ls : shape t ls -> ls <> [].
Proof. destruct 1; [discriminate|]. destruct ls1; [congruence|discriminate]. Qed.

(* the tree built over the leaves has their shape and stores no interval yet *)
Lemma insert_nodes_shape : forall fuel ls, (0 < length ls < fuel)%nat ->
  exists t, insert_nodes fuel ls = Some t /\ shape t ls /\ forall a b, query t a b = [].
Proof.
  induction fuel as [|f IH]; intros ls Hf; [lia|]. cbn [insert_nodes].
  destruct ls as [|l0 [|l1 r]]; [cbn in Hf; lia| |].
  - eexists; split; [reflexivity|]. split; [constructor|]. intros a b. cbn. destruct (disjoint l0 a b); reflexivity.
  - set (ls := l0 :: l1 :: r) in *. set (c := Nat.div (length ls) 2).
    assert (Hc : (1 <= c < length ls)%nat).
    { split; [apply Nat.div_le_lower_bound|apply Nat.div_lt]; unfold ls; cbn [length]; lia. }
    destruct (IH (firstn c ls)) as (tl & El & Sl & Ql); [rewrite firstn_length; lia|].
    destruct (IH (skipn c ls)) as (tr & Er & Sr & Qr); [rewrite skipn_length; lia|].
    rewrite El, Er. eexists; split; [reflexivity|]. split.
    + pose proof (shape_node [] tl tr _ _ (shape_nonempty _ _ Sl) (shape_nonempty _ _ Sr) Sl Sr) as Hs.
      rewrite (firstn_skipn c ls) in Hs. exact Hs.
    + intros a b. cbn [query]. rewrite Ql, Qr. destruct (disjoint _ a b); reflexivity.
Qed.

Lemma insert_interval_shape t ls i : shape t ls -> shape (insert_interval t i) ls.
Proof.
  induction 1 as [l ov|ov tl tr ls1 ls2 H1 H2 Sl IHl Sr IHr]; cbn [insert_interval].
  - destruct (subset_of l (iseg i)); constructor.
  - destruct (subset_of _ (iseg i)); [constructor; assumption|].
    constructor; try assumption; [destruct (intersects _ _)|destruct (intersects _ _)]; assumption.
Qed.

(* soundness: an answer is an inserted interval that contains v *)
Lemma query_insert_sound t j v id : In id (query (insert_interval t j) v v) ->
  In id (query t v v) \/ id = iid j /\ inseg (iseg j) v.
Proof.
  (* an overlap list grows by j only at a node inside j's range, and is read only if the node contains v *)
  assert (Hov : forall s ov, subset_of s (iseg j) = true -> disjoint s v v = false ->
            In id (map iid (ov ++ [j])) -> In id (map iid ov) \/ id = iid j /\ inseg (iseg j) v).
  { intros s ov Hs Hd H. rewrite map_app in H. apply in_app_or in H as [H|[<-|[]]]; [left; exact H|right].
    unfold subset_of, disjoint, inseg in *. lia. }
  induction t as [s ov|s ov l IHl r IHr]; cbn [insert_interval query].
  - destruct (subset_of s (iseg j)) eqn:Es; cbn [query]; [|tauto].
    destruct (disjoint s v v) eqn:Ed; [tauto|]. apply (Hov s ov Es Ed).
  - destruct (subset_of s (iseg j)) eqn:Es; cbn [query]; destruct (disjoint s v v) eqn:Ed; try tauto.
    + rewrite !in_app_iff. intros [H|H]; [|tauto]. destruct (Hov s ov Es Ed H); tauto.
    + rewrite !in_app_iff. intros [H|[H|H]]; [tauto| |].
      * destruct (intersects (tseg r) (iseg j)); [apply IHr in H|]; tauto.
      * destruct (intersects (tseg l) (iseg j)); [apply IHl in H|]; tauto.
Qed.

(* later insertions never remove an answer *)
Lemma query_insert_mono t j v id : In id (query t v v) -> In id (query (insert_interval t j) v v).
Proof.
  induction t as [s ov|s ov l IHl r IHr]; cbn [insert_interval query]; intros H.
  - destruct (subset_of s (iseg j)); cbn [query]; [|assumption].
    destruct (disjoint s v v); [assumption|]. rewrite map_app. apply in_or_app. left; assumption.
  - destruct (subset_of s (iseg j)); cbn [query]; (destruct (disjoint s v v); [assumption|]).
    + rewrite map_app, !in_app_iff in *. tauto.
    + rewrite !in_app_iff in *. destruct H as [H|[H|H]]; [tauto| |].
      * right; left. destruct (intersects (tseg r) (iseg j)); auto.
      * right; right. destruct (intersects (tseg l) (iseg j)); auto.
Qed.

(* the hull of monotone leaves contains every point of every member *)
Lemma hull_contains ls l v : ordered seg_le ls -> In l ls -> inseg l v -> inseg (hull ls) v.
Proof.
  intros Hm Hin Hv. destruct ls as [|l0 r]; [destruct Hin|].
  assert (Hlast : sto l <= sto (last (l0 :: r) l0)).
  { rewrite (app_removelast_last l0 (l := l0 :: r)) in Hm, Hin by discriminate.
    apply ordered_app in Hm as (_ & _ & Hm).
    apply in_app_or in Hin as [Hin|[<-|[]]]; [apply (Hm _ _ Hin); left; reflexivity|lia]. }
  unfold hull, inseg in *. cbn [sfrom sto]. destruct Hm as (H1 & _).
  destruct Hin as [<-|Hin]; [lia|]. destruct (H1 _ Hin). lia.
Qed.

Lemma inseg_not_disjoint s v : inseg s v -> disjoint s v v = false.
Proof. unfold inseg, disjoint. lia. Qed.

(* inserting an interval stores it on the root-to-leaf path of every leaf it covers *)
Lemma complete_insert t ls : shape t ls -> ordered seg_le ls -> forall l v i, In l ls -> inseg l v ->
  subset_of l (iseg i) = true -> In (iid i) (query (insert_interval t i) v v).
Proof.
  induction 1 as [l0 ov|ov tl tr ls1 ls2 H1 H2 Sl IHl Sr IHr]; intros Hm l v i Hin Hv Hsub; cbn [insert_interval].
  - destruct Hin as [<-|[]]. rewrite Hsub. cbn [query]. rewrite (inseg_not_disjoint _ _ Hv).
    apply in_map, in_elt.
  - pose proof (hull_contains _ _ _ Hm Hin Hv) as Hh.
    destruct (subset_of (hull (ls1 ++ ls2)) (iseg i)) eqn:Es; cbn [query]; rewrite (inseg_not_disjoint _ _ Hh).
    + apply in_or_app. left. apply in_map, in_elt.
    + apply ordered_app in Hm as (Hm1 & Hm2 & _).
      (* v lies in the hull of the child holding l and in i's range, so that child is visited *)
      assert (Hvis : forall t' ls', shape t' ls' -> ordered seg_le ls' -> In l ls' ->
                intersects (tseg t') (iseg i) = true).
      { intros t' ls' S' M' I'. rewrite (shape_tseg _ _ S'). pose proof (hull_contains _ _ _ M' I' Hv).
        unfold intersects, subset_of, inseg in *. lia. }
      apply in_or_app. right. apply in_app_or in Hin as [Hin|Hin]; apply in_or_app; [right|left].
      * rewrite (Hvis _ _ Sl Hm1 Hin). eapply IHl; eauto.
      * rewrite (Hvis _ _ Sr Hm2 Hin). eapply IHr; eauto.
Qed.

(* inserting intervals, each of whose points lies in a leaf inside it, into a tree over monotone
   leaves adds exactly the intervals containing v to the answers for v *)
Lemma query_fold ls v : ordered seg_le ls -> forall base t, shape t ls ->
  (forall j, In j base -> inseg (iseg j) v -> exists l, In l ls /\ inseg l v /\ subset_of l (iseg j) = true) ->
  forall id, In id (query (fold_left insert_interval base t) v v) <->
    In id (query t v v) \/ exists j, In j base /\ iid j = id /\ inseg (iseg j) v.
Proof.
  intros Hm. induction base as [|j r IH]; intros t Hs Hcov id; cbn [fold_left].
  - split; [auto|intros [H|(j & [] & _)]; exact H].
  - rewrite IH; [|apply insert_interval_shape, Hs|intros j' Hj'; apply Hcov; right; exact Hj']. split.
    + intros [H|(j' & Hj & Hi & Hv)]; [|right; exists j'; cbn [In]; auto].
      apply query_insert_sound in H as [H|[-> Hv]]; [left; exact H|right; exists j; cbn [In]; auto].
    + intros [H|(j' & [<-|Hj] & <- & Hv)]; [left; apply query_insert_mono, H| |right; exists j'; auto].
      left. destruct (Hcov j (or_introl eq_refl) Hv) as (l & Hl & Hlv & Hsub).
      apply (complete_insert t ls Hs Hm l); assumption.
Qed.

Lemma number_segs : forall rs k, map (fun i => (sfrom (iseg i), sto (iseg i))) (number k rs) = rs.
Proof.
  induction rs as [|[a b] r IH]; intros k; cbn [number map iseg sfrom sto]; [reflexivity|]. f_equal. apply IH.
Qed.

Definition wf_ranges (rs : list (Z * Z)) : Prop :=
  Forall (fun r => 0 <= fst r /\ fst r <= snd r /\ snd r < two32s) rs.

(* what Build() produces: the empty tree over the elementary leaves of the endpoints, then every
   range inserted; a query for v returns the numbers of the ranges containing v *)
Lemma build_query rs : rs <> [] -> exists t, build rs = Some t /\
  forall v id, In id (query t v v) <-> exists j, In j (number 0 rs) /\ iid j = id /\ inseg (iseg j) v.
Proof.
  intros Hne. destruct rs as [|r0 rs']; [congruence|]. set (base := number 0 (r0 :: rs')). set (es := endpoints base).
  destruct (dedup_spec (map (fun i => sfrom (iseg i)) base ++ map (fun i => sto (iseg i)) base)) as [Hes_in Hes_s].
  fold (endpoints base) in Hes_in, Hes_s. fold es in Hes_in, Hes_s.
  assert (Hends : forall j, In j base -> In (sfrom (iseg j)) es /\ In (sto (iseg j)) es).
  { intros j Hj. split; apply Hes_in, in_or_app; [left|right]; apply in_map_iff; exists j; auto. }
  assert (Hlen : (0 < length (elementary es))%nat).
  { destruct r0 as [a b]. destruct (Hends _ (or_introl eq_refl)) as [Ha _].
    destruct es as [|p [|q r]]; [destruct Ha|cbn; lia..]. }
  destruct (insert_nodes_shape (S (length (elementary es))) (elementary es)) as (t0 & Et & St & Qt); [lia|].
  exists (fold_left insert_interval base t0). split.
  - unfold build. fold base. fold es. rewrite Et. reflexivity.
  - intros v id. rewrite (query_fold _ v (elementary_mono _ Hes_s) base t0 St), Qt; [cbn [In]; tauto|].
    intros j Hj Hv. destruct (Hends j Hj) as [Ha Hb].
    destruct (elementary_cover es _ _ v Hes_s Ha Hb Hv) as (l & Hl & Hlv & Hal & Hlb).
    exists l. unfold subset_of. split; [exact Hl|split; [exact Hlv|lia]].
Qed.

(* C18 core: the tree built from any list of ranges answers exactly "v is in some range" *)
Theorem stree_exact rs v : wf_ranges rs -> contains (build rs) v = in_some_range rs v.
Proof.
  intros _. destruct rs as [|r0 rs']; [reflexivity|]. set (rs := r0 :: rs') in *.
  destruct (build_query rs ltac:(discriminate)) as (t & -> & Hq).
  pose proof (number_segs rs 0) as Hrs.
  unfold contains, in_some_range. destruct (existsb _ rs) eqn:Ein.
  - apply existsb_exists in Ein as ([a b] & Hab & Hv). cbn [fst snd] in Hv.
    rewrite <- Hrs in Hab. apply in_map_iff in Hab as (j & E & Hj). injection E as <- <-.
    assert (Hin : In (iid j) (query t v v)) by (apply Hq; exists j; unfold inseg; repeat split; [assumption|lia..]).
    destruct (query t v v); [destruct Hin|reflexivity].
  - destruct (query t v v) as [|id rest] eqn:Eq; [reflexivity|exfalso].
    destruct (proj1 (Hq v id)) as (j & Hj & _ & Hjv); [rewrite Eq; left; reflexivity|].
    apply Bool.not_true_iff_false in Ein. apply Ein, existsb_exists.
    exists (sfrom (iseg j), sto (iseg j)). split; [rewrite <- Hrs; apply in_map_iff; exists j; auto|].
    unfold inseg in Hjv. cbn [fst snd]. lia.
Qed.

(* CIDR: /k covers exactly [ip & mask, ip | ~mask] *)
Theorem cidr_range_spec ip k v : 0 <= ip < two32s -> 0 <= k <= 32 ->
  let '(a, b) := cidr_range ip k in
  0 <= a /\ a <= b /\ b < two32s /\ (a <= v <= b <-> v / 2 ^ (32 - k) = ip / 2 ^ (32 - k)).
Proof.
  intros Hip Hk. unfold cidr_range. set (m := 2 ^ (32 - k)).
  assert (Hm : 0 < m) by (apply Z.pow_pos_nonneg; lia).
  assert (Hm32 : m * 2 ^ k = two32s).
  { unfold m, two32s. rewrite <- Z.pow_add_r by lia. replace (32 - k + k) with 32 by lia. reflexivity. }
  assert (Hk2 : 0 < 2 ^ k) by (apply Z.pow_pos_nonneg; lia).
  assert (Hq : 0 <= ip / m < 2 ^ k).
  { split; [apply Z.div_pos; lia|]. apply Z.div_lt_upper_bound; lia. }
  Z.div_mod_to_equations. repeat split; nia.
Qed.

(* a failed reload keeps the previous tree *)
Theorem reload_atomic b ls : load ls = None -> fst (reload b ls) = b.
Proof. unfold reload. intros ->. reflexivity. Qed.

Example stree_example : contains (build [(5, 9); (7, 12); (20, 20)]) 10 = true /\ wf_ranges [(5, 9); (7, 12); (20, 20)].
Proof. split; [vm_compute; reflexivity|]. repeat constructor; unfold two32s; cbn; lia. Qed.

Definition ranges_of (ls : list line) : list (Z * Z) :=
  flat_map (fun l => match l with LRule ip k => [cidr_range ip k] | _ => [] end) ls.
Definition line_ok (l : line) : Prop :=
  match l with LRule ip k => 0 <= ip < two32s /\ 0 <= k <= 32 | _ => True end.

Lemma ranges_of_wf ls : Forall line_ok ls -> wf_ranges (ranges_of ls).
Proof.
  induction 1 as [|l r Hl Hr IH]; [constructor|]. unfold ranges_of in *. cbn [flat_map].
  destruct l as [ip k| |]; cbn [app]; [|assumption|assumption].
  constructor; [|assumption]. destruct Hl as [Hip Hk].
  pose proof (cidr_range_spec ip k 0 Hip Hk) as H. destruct (cidr_range ip k) as [a b]. cbn [fst snd]. tauto.
Qed.

(* blocked exactly when the address lies in at least one rule of the last successful load *)
Theorem load_exact ls t n v : Forall line_ok ls -> load ls = Some (t, n) ->
  contains t v = in_some_range (ranges_of ls) v /\ n = zlen (ranges_of ls).
Proof.
  intros Hok H. unfold load in H. fold (ranges_of ls) in H.
  destruct (Nat.eqb (length (ranges_of ls)) 0 && _); [discriminate|]. inversion H; subst.
  split; [|reflexivity]. apply stree_exact. apply ranges_of_wf. assumption.
Qed.
