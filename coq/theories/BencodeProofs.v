(* decode (encode v) = v for the bencode model, for every value. *)
From RainV Require Import Lib Bencode.
From Coq Require Import Decimal DecimalZ DecimalPos.

Lemma uint_roundtrip : forall u rest,
  (match rest with c :: _ => is_digit c = false | [] => True end) ->
  uint_of_bytes (bytes_of_uint u ++ rest) = (u, rest).
Proof.
  induction u as [|u IH|u IH|u IH|u IH|u IH|u IH|u IH|u IH|u IH|u IH]; intros rest H;
    cbn [bytes_of_uint]; rewrite <- ?app_comm_cons; change ([] ++ rest) with rest.
  1: { destruct rest as [|c r]; [reflexivity|]. cbn [uint_of_bytes]. rewrite H. reflexivity. }
  all: cbn [uint_of_bytes]; change (is_digit _) with true; cbv iota; rewrite IH by assumption; reflexivity.
Qed.

Lemma bytes_of_uint_head u : u <> Nil -> exists c r, bytes_of_uint u = c :: r /\ is_digit c = true.
Proof. destruct u; intros H; [congruence| | | | | | | | | |]; cbn [bytes_of_uint]; eexists; eexists; split; reflexivity. Qed.

Lemma to_int_nonnil z : match Z.to_int z with Decimal.Pos u | Decimal.Neg u => u <> Nil end.
Proof. destruct z; cbn [Z.to_int]; [discriminate| |]; apply Unsigned.to_uint_nonnil. Qed.

(* a match on a byte literal reduces to its default branch along the bits of the literal *)
Lemma match45 {A} (c : Z) (a b : A) : c <> 45 -> match c with 45 => a | _ => b end = b.
Proof.
  intros H. destruct c as [|p|p]; try reflexivity.
  do 6 (destruct p as [p|p|]; try reflexivity). congruence.
Qed.

Lemma match101 {A} (c : Z) (a b : A) : c <> 101 -> match c with 101 => a | _ => b end = b.
Proof.
  intros H. destruct c as [|p|p]; try reflexivity.
  do 7 (destruct p as [p|p|]; try reflexivity). congruence.
Qed.

Lemma dec_int_roundtrip z rest : dec_int (bytes_of_Z z ++ 101 :: rest) = Some (z, rest).
Proof.
  unfold bytes_of_Z. pose proof (to_int_nonnil z) as Hn. pose proof (DecimalZ.of_to z) as Hz.
  destruct (Z.to_int z) as [u|u] eqn:E; rewrite <- Hz.
  - (* the first byte is a digit, so the sign test of [dec_int] falls through *)
    pose proof (uint_roundtrip u (101 :: rest) eq_refl) as R.
    destruct u; [congruence|..]; cbn [bytes_of_uint] in *; rewrite <- app_comm_cons in *;
      unfold dec_int; cbv iota; rewrite R; reflexivity.
  - rewrite <- app_comm_cons. unfold dec_int. rewrite uint_roundtrip by reflexivity.
    destruct u; [congruence|..]; reflexivity.
Qed.

Lemma bytes_of_Z_nonneg n : 0 <= n -> exists u, bytes_of_Z n = bytes_of_uint u /\ u <> Nil /\ Z.of_uint u = n.
Proof.
  intros H. unfold bytes_of_Z. pose proof (to_int_nonnil n) as Hn. pose proof (DecimalZ.of_to n) as Hz.
  destruct (Z.to_int n) as [u|u] eqn:E.
  - exists u. auto.
  - exfalso. destruct n; cbn in E; try discriminate. lia.
Qed.

Lemma dec_str_roundtrip s rest : dec_str (enc_str s ++ rest) = Some (s, rest).
Proof.
  unfold enc_str. destruct (bytes_of_Z_nonneg (zlen s) (zlen_nonneg s)) as (u & Hb & Hn & Hz).
  rewrite Hb, <- app_assoc, <- app_comm_cons.
  unfold dec_str. rewrite uint_roundtrip by reflexivity.
  assert (Hle : (Z.of_uint u <=? zlen (s ++ rest)) = true).
  { rewrite Hz, zlen_app. pose proof (zlen_nonneg rest). lia. }
  destruct u; [congruence|..]; rewrite Hle, Hz; unfold zlen;
    rewrite Nat2Z.id, (firstn_app_exact s rest _ eq_refl), (skipn_app_exact s rest _ eq_refl); reflexivity.
Qed.

Lemma enc_str_head s : exists c r, enc_str s = c :: r /\ is_digit c = true.
Proof.
  unfold enc_str. destruct (bytes_of_Z_nonneg (zlen s) (zlen_nonneg s)) as (u & Hb & Hn & _).
  rewrite Hb. destruct (bytes_of_uint_head u Hn) as (c & r & -> & Hd). exists c, (r ++ 58 :: s). auto.
Qed.

Lemma enc_head v : exists c r, enc v = c :: r /\ c <> 101.
Proof.
  destruct v as [z|s|l|d]; cbn [enc].
  2: { destruct (enc_str_head s) as (c & r & -> & Hd). exists c, r. split; [reflexivity|unfold is_digit in Hd; lia]. }
  all: eexists; eexists; split; [reflexivity|lia].
Qed.

Lemma enc_length_pos v : (0 < length (enc v))%nat.
Proof. destruct (enc_head v) as (c & r & -> & _). cbn [length]. lia. Qed.

(* in front of an encoded element the list and dictionary decoders do not see the closing 'e' *)
Lemma dec_list_enc f x tl :
  dec_list (S f) (enc x ++ tl) =
  match dec_val f (enc x ++ tl) with
  | Some (v, rest) => match dec_list f rest with Some (l, rest') => Some (v :: l, rest') | None => None end
  | None => None
  end.
Proof. destruct (enc_head x) as (c & t & -> & Hne). cbn [dec_list app]. apply match101, Hne. Qed.

Lemma dec_dict_enc f k tl :
  dec_dict (S f) (enc_str k ++ tl) =
  match dec_val f tl with
  | Some (v, rest) => match dec_dict f rest with Some (d, rest') => Some ((k, v) :: d, rest') | None => None end
  | None => None
  end.
Proof.
  pose proof (dec_str_roundtrip k tl) as Hk. destruct (enc_head (BStr k)) as (c & t & Hc & Hne). cbn [enc] in Hc.
  rewrite Hc in *. cbn [dec_dict app] in *. rewrite Hk. apply match101, Hne.
Qed.

Section Ind.
Variable P : bval -> Prop.
Hypothesis HI : forall z, P (BInt z).
Hypothesis HS : forall s, P (BStr s).
Hypothesis HL : forall l, Forall P l -> P (BList l).
Hypothesis HD : forall d, Forall (fun kv => P (snd kv)) d -> P (BDict d).
Fixpoint bval_ind' (v : bval) : P v :=
  match v with
  | BInt z => HI z
  | BStr s => HS s
  | BList l => HL l ((fix go (l : list bval) : Forall P l :=
                        match l with [] => Forall_nil _ | x :: r => Forall_cons x (bval_ind' x) (go r) end) l)
  | BDict d => HD d ((fix go (d : list (list Z * bval)) : Forall (fun kv => P (snd kv)) d :=
                        match d with [] => Forall_nil _ | kv :: r => Forall_cons kv (bval_ind' (snd kv)) (go r) end) d)
  end.
End Ind.

(* fuel: one unit per byte of the encoding is enough, since every value takes at least one byte *)
Definition rt (v : bval) : Prop :=
  forall fuel rest, (length (enc v) <= fuel)%nat -> dec_val fuel (enc v ++ rest) = Some (v, rest).

Lemma dec_val_digit f c r : is_digit c = true ->
  dec_val (S f) (c :: r) = match dec_str (c :: r) with Some (b, rest) => Some (BStr b, rest) | None => None end.
Proof.
  intros H.
  assert (C : c = 48 \/ c = 49 \/ c = 50 \/ c = 51 \/ c = 52 \/ c = 53 \/ c = 54 \/ c = 55 \/ c = 56 \/ c = 57)
    by (unfold is_digit in H; lia).
  destruct C as [->|[->|[->|[->|[->|[->|[->|[->|[->| ->]]]]]]]]]; reflexivity.
Qed.

Lemma rt_list l : Forall rt l -> forall fuel rest, (length (flat_map enc l) < fuel)%nat ->
  dec_list fuel (flat_map enc l ++ 101 :: rest) = Some (l, rest).
Proof.
  induction 1 as [|x r Hx _ IH]; intros fuel rest Hf; (destruct fuel as [|f]; [lia|]); [reflexivity|].
  cbn [flat_map] in *. rewrite app_length in Hf. pose proof (enc_length_pos x). rewrite <- app_assoc.
  rewrite dec_list_enc. rewrite Hx by lia. rewrite IH by lia. reflexivity.
Qed.

Lemma rt_dict d : Forall (fun kv => rt (snd kv)) d -> forall fuel rest,
  (length (flat_map (fun kv => enc_str (fst kv) ++ enc (snd kv)) d) < fuel)%nat ->
  dec_dict fuel (flat_map (fun kv => enc_str (fst kv) ++ enc (snd kv)) d ++ 101 :: rest) = Some (d, rest).
Proof.
  induction 1 as [|[k v] r Hx _ IH]; intros fuel rest Hf; (destruct fuel as [|f]; [lia|]); [reflexivity|].
  cbn [flat_map fst snd] in *. rewrite !app_length in Hf. pose proof (enc_length_pos v). rewrite <- !app_assoc.
  rewrite dec_dict_enc. rewrite Hx by lia. rewrite IH by lia. reflexivity.
Qed.

Theorem dec_enc_fuel : forall v, rt v.
Proof.
  apply bval_ind'; unfold rt.
  - intros z fuel rest Hf. destruct fuel as [|f]; [cbn in Hf; lia|]. cbn [enc].
    rewrite <- app_comm_cons, <- app_assoc. cbn [dec_val]. change ([101] ++ rest) with (101 :: rest).
    rewrite dec_int_roundtrip. reflexivity.
  - intros s fuel rest Hf. cbn [enc] in *.
    destruct (enc_str_head s) as (c & t & Hc & Hd). pose proof (dec_str_roundtrip s rest) as Hr.
    rewrite Hc in *. cbn [length] in Hf. destruct fuel as [|f]; [lia|].
    rewrite <- app_comm_cons in *. rewrite dec_val_digit by assumption. rewrite Hr. reflexivity.
  - intros l Hl fuel rest Hf. cbn [enc length] in *. rewrite app_length in Hf. destruct fuel as [|f]; [lia|].
    rewrite <- app_comm_cons, <- app_assoc. cbn [dec_val]. change ([101] ++ rest) with (101 :: rest).
    rewrite (rt_list l Hl) by (cbn [length] in Hf; lia). reflexivity.
  - intros d Hd fuel rest Hf. cbn [enc length] in *. rewrite app_length in Hf. destruct fuel as [|f]; [lia|].
    rewrite <- app_comm_cons, <- app_assoc. cbn [dec_val]. change ([101] ++ rest) with (101 :: rest).
    rewrite (rt_dict d Hd) by (cbn [length] in Hf; lia). reflexivity.
Qed.

(* the fuel [decode] uses (input length + 1) always suffices *)
Theorem decode_encode v rest : decode (enc v ++ rest) = Some (v, rest).
Proof. unfold decode. apply dec_enc_fuel. rewrite app_length. lia. Qed.

(* the decoder is total: on every byte string and every fuel it returns a value or None; its
   recursion depth is bounded by the fuel, i.e. by the input length + 1 in [decode] (this is
   what a structurally recursive Gallina function gives for free; stated for the record) *)
Theorem decode_total s : decode s = None \/ exists v rest, decode s = Some (v, rest).
Proof. destruct (decode s) as [[v r]|]; [right; eauto|left; reflexivity]. Qed.

Example decode_example :
  decode [100; 49; 58; 97; 105; 45; 52; 50; 101; 49; 58; 98; 108; 49; 58; 120; 101; 101; 7] =
  Some (BDict [([97], BInt (-42)); ([98], BList [BStr [120]])], [7]).
Proof. vm_compute. reflexivity. Qed.
