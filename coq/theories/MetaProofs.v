(* What metainfo.NewInfo accepts is well formed ([accept_wf]), so NewPieces and calculateBlocks terminate on it
   with the results of C02; the nesting verdicts of the case runner. *)
From RainV Require Import Lib Geometry Meta PiecesProofs BlocksProofs.
From Coq Require Import ZifyBool.

Definition int64 (z : Z) : Prop := - two63 <= z < two63.

Lemma wrap64_id z : int64 z -> wrap64 z = z.
Proof. unfold int64, wrap64, two63, two64. intros H. rewrite Z.mod_small by lia. lia. Qed.

Lemma wrap64_range z : int64 (wrap64 z).
Proof.
  unfold int64, wrap64, two63, two64.
  pose proof (Z.mod_pos_bound (z + 9223372036854775808) 18446744073709551616). lia.
Qed.

(* A sum or difference of two int64 values that comes out non-negative after wrapping did not wrap. *)
Lemma wrap64_nonneg z : - two63 <= z < two64 -> 0 <= wrap64 z -> wrap64 z = z.
Proof. unfold wrap64, two63, two64. intros H H0. Z.div_mod_to_equations. lia. Qed.

(* with the fix, a completed summation means no length was negative and nothing wrapped *)
Lemma sum_files_fixed : forall fs acc pad L P, 0 <= acc < two63 ->
  Forall (fun f => int64 (dlen f)) fs ->
  sum_files true acc pad fs = Some (L, P) ->
  Forall (fun f => 0 <= dlen f) fs /\ L = acc + fold_right (fun f a => dlen f + a) 0 fs /\ 0 <= L < two63.
Proof.
  induction fs as [|f r IH]; intros acc pad L P Ha Hr H; cbn [sum_files] in H.
  - inversion H; subst. cbn. split; [constructor|lia].
  - inversion Hr as [|? ? Hf Hr']; subst. cbn [andb] in H.
    destruct (dlen f <? 0) eqn:E1; [discriminate|].
    destruct (wrap64 (acc + dlen f) <? 0) eqn:E2; [discriminate|].
    pose proof (wrap64_range (acc + dlen f)) as Hrng.
    rewrite wrap64_nonneg in * by (unfold int64, two63, two64 in *; lia).
    apply IH in H; [|unfold int64 in Hrng; lia|assumption].
    destruct H as (H1 & H2 & H3). split; [constructor; [lia|assumption]|].
    cbn [fold_right]. lia.
Qed.

Lemma sum_flen_map padopt fs :
  sum_flen (map (fun f => {| flen := dlen f; fpad := padopt && dpadding f |}) fs) =
  fold_right (fun f a => dlen f + a) 0 fs.
Proof. induction fs as [|f r IH]; [reflexivity|]. cbn [map fold_right]. rewrite sum_flen_cons, IH. reflexivity. Qed.

(* errInvalidPieceData's length test in int64: total := pl * n and delta := total - L do not wrap,
   so 0 <= delta < pl says L fills all pieces but possibly the end of the last. *)
Lemma delta_ok pl n L : 0 < pl < two32 -> 0 < n < 2147483648 -> int64 L ->
  (wrap64 (wrap64 (pl * n) - L) >=? pl) || (wrap64 (wrap64 (pl * n) - L) <? 0) = false ->
  pl * (n - 1) < L <= pl * n.
Proof.
  intros Hpl Hn HL H. unfold int64, two32, two63 in *.
  pose proof (Z.mul_pos_pos pl n ltac:(lia) ltac:(lia)).
  pose proof (Z.mul_lt_mono_nonneg pl 4294967296 n 2147483648 ltac:(lia) ltac:(lia) ltac:(lia) ltac:(lia)).
  rewrite (wrap64_id (pl * n)) in H by (unfold int64, two63; lia).
  rewrite wrap64_nonneg in H by (unfold two63, two64; lia). lia.
Qed.

Lemma wf_of_bounds fs pl n L : fs <> [] -> Forall (fun f => 0 <= flen f) fs -> 0 < pl -> 0 < n ->
  pl * (n - 1) < L <= pl * n -> L = sum_flen fs -> wf_info fs pl (Z.to_nat n) L.
Proof. intros. constructor; auto; rewrite ?Z2Nat.id by lia; lia. Qed.

(* C06 core: whatever the decoded field values, an accepted info is well-formed. *)
Theorem accept_wf padopt d i :
  Forall (fun f => int64 (dlen f)) (d_files d) -> int64 (d_single d) ->
  0 <= d_npb d -> d_npb d / 20 < 2147483648 ->
  accept true padopt d = Some i ->
  wf_info (i_files i) (i_pl i) (Z.to_nat (i_n i)) (i_len i) /\ 0 < i_n i /\ i_pl i < two32.
Proof.
  intros Hfs Hsingle Hnpb Hn H. unfold accept in H.
  destruct ((d_pl d <? 0) || (d_pl d >=? two32)) eqn:E0; [discriminate|].
  destruct (d_pl d =? 0) eqn:E1; [discriminate|].
  destruct (negb (d_npb d mod 20 =? 0)) eqn:E2; [discriminate|].
  pose proof (Z.div_pos (d_npb d) 20 Hnpb ltac:(lia)) as Hn0.
  set (n := d_npb d / 20) in *.
  destruct (n =? 0) eqn:E3; [discriminate|].
  assert (Hpl : 0 < d_pl d < two32) by lia.
  destruct (if negb _ then _ else _) as [[L P]|] eqn:Es in H; [|discriminate].
  destruct (_ || _) eqn:Ed in H; [discriminate|].
  inversion H; subst i; cbn [i_files i_pl i_n i_len]. clear H.
  destruct (negb (Nat.eqb (length (d_files d)) 0)) eqn:Em.
  - apply sum_files_fixed in Es as (Hnn & HL & HLr); [|unfold two63; lia|assumption].
    apply delta_ok in Ed; [|lia|lia|unfold int64; lia].
    split; [|split; lia]. apply wf_of_bounds; try lia.
    + destruct (d_files d); discriminate.
    + rewrite Forall_map. exact Hnn.
    + rewrite sum_flen_map. lia.
  - inversion Es; subst L P.
    apply delta_ok in Ed; [|lia|lia|assumption].
    split; [|split; lia]. apply wf_of_bounds; try lia.
    + discriminate.
    + constructor; [cbn [flen]; nia|constructor].
    + cbn. lia.
Qed.

(* the pinned code accepts a negative (padding) file length *)
Theorem accept_wf_refuted_pinned :
  exists padopt d i, Forall (fun f => int64 (dlen f)) (d_files d) /\
    accept false padopt d = Some i /\ ~ Forall (fun f => 0 <= flen f) (i_files i).
Proof.
  exists true, {| d_pl := 100; d_npb := 20; d_single := 0;
                  d_files := [{| dlen := 100; dpadding := false |}; {| dlen := -50; dpadding := true |};
                              {| dlen := 50; dpadding := false |}] |}.
  eexists. split; [repeat constructor; unfold int64, two63; cbn; lia|].
  split; [vm_compute; reflexivity|].
  intros H. inversion H as [|? ? _ H2]; subst. inversion H2 as [|? ? H3 _]; subst. cbn in H3. lia.
Qed.

(* Starting an accepted torrent terminates: piece construction returns within its fuel
   (|files| + 2 loop iterations per piece) without a panic, and block layout of every piece
   returns within (len / 16384 + 2) iterations per section. *)
Theorem accepted_pieces_terminate padopt d i :
  Forall (fun f => int64 (dlen f)) (d_files d) -> int64 (d_single d) ->
  0 <= d_npb d -> d_npb d / 20 < 2147483648 ->
  accept true padopt d = Some i ->
  exists ps, new_pieces (i_files i) (i_pl i) (i_len i) (Z.to_nat (i_n i)) = Ok ps /\
    length ps = Z.to_nat (i_n i) /\
    Forall (fun p => exists bl, calc_blocks true 16384 (psecs p) = Ok bl) ps.
Proof.
  intros H1 H2 H3 H4 H5. destruct (accept_wf _ _ _ H1 H2 H3 H4 H5) as (WF & Hn & _).
  destruct (new_pieces_ok _ _ _ _ WF) as (ps & E & Hl & Hc & Hp & _).
  exists ps. split; [exact E|]. split; [exact Hl|].
  apply chain_ok_inv in Hc as [_ Hall]. rewrite Forall_flat_map in Hall.
  apply piece_lens_ok_Forall in Hp. rewrite Forall_forall in *. intros p Hin.
  destruct (Hp p Hin) as [Hs Hv].
  destruct (blocks_tile 16384 (psecs p)) as (bl & Eb & _); [lia|eapply sec_in_nonneg, Hall, Hin| |eauto].
  intros Hnil. rewrite Hnil in Hs. cbn in Hs.
  pose proof (wf_pl _ _ _ _ WF). pose proof (wf_lo _ _ _ _ WF). lia.
Qed.

Example accept_example :
  accept true true {| d_pl := 16384; d_npb := 40; d_single := 0;
    d_files := [{| dlen := 20000; dpadding := false |}; {| dlen := 12768; dpadding := true |}] |} <> None.
Proof. vm_compute. discriminate. Qed.

(* an accepted document is never nested deeper than the limit: the decoder's recursion is bounded *)
Lemma accepted_nesting_bounded w n k : run_nesting [w; n; k] = [1] -> nesting_levels w n <= max_nesting.
Proof. cbn [run_nesting]. destruct (w >=? 3); [discriminate|]. destruct (Z.leb_spec (nesting_levels w n) max_nesting); [auto|discriminate]. Qed.

Lemma net_nesting_bounded n t : run_net_nesting [n; t] = [1] -> nesting_levels 0 n <= max_nesting.
Proof.
  cbn [run_net_nesting]. destruct (z2b t); cbn [andb]; [|discriminate].
  destruct (Z.leb_spec (nesting_levels 0 n) max_nesting); [auto|discriminate].
Qed.
