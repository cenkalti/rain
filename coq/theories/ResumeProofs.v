(* The integer and boolean fields of a resume record read back as written. *)
From RainV Require Import Lib Bencode BencodeProofs Resume.

Theorem int_field_roundtrip z : parse_int (fmt_int z) = Some z.
Proof. unfold parse_int, fmt_int. rewrite dec_int_roundtrip. reflexivity. Qed.

Theorem bool_field_roundtrip b : parse_bool (fmt_bool b) = Some b.
Proof. destruct b; reflexivity. Qed.
