(* Mse.v (C12), continued: what a completed handshake guarantees on any input; two honest parties run
   against each other. *)
From RainV Require Import Lib Mse MseProofs.

(* the key schedule (256 swaps, 1024 discarded bytes) must never be unfolded by a tactic *)
Global Opaque rc4_init.

(* Every exit of a party function but the last is [failed] with a code other than 0, and the last lies
   behind the [sel_valid] test: so [p_err = 0] leaves one branch.  [bm] opens the next [match], [kf] closes
   a branch that ended in [failed]. *)
Ltac bm := match goal with |- context [match ?x with _ => _ end] => destruct x eqn:? end; cbv beta iota.
Ltac kf := try match goal with
               | |- p_err (failed _ _ _) = 0 -> _ =>
                   cbn [p_err failed]; let Hx := fresh "Hx" in intro Hx; try discriminate Hx;
                   try (exfalso; revert Hx; apply read_sync_err_of_none; assumption)
               end.
Ltac break_match := repeat (bm; kf).

Lemma initiator_sends ya padA provide lenC ia o incoming chunks f :
  first_read chunks 0 = Some f -> provide <> 0 -> zlen ia <= 65535 ->
  let a := initiator ya padA provide lenC ia o incoming chunks in
  p_sent1 a = ya ++ padA /\
  p_sent2 a = o_req1 o ++ xor20 (o_req2 o) (o_req3 o) ++ fst (rc4_xor (rc4_init (o_keyA o)) (hs3 provide lenC ia)).
Proof.
  intros Hf Hp Hi. cbv zeta. unfold initiator. destruct (provide =? 0) eqn:Ep; [lia|].
  destruct (65535 <? zlen ia) eqn:Ei; [lia|]. rewrite Hf. fold (hs3 provide lenC ia).
  destruct (rc4_xor (rc4_init (o_keyA o)) (hs3 provide lenC ia)) as [bd e1]. cbn [fst].
  fold (xor20 (o_req2 o) (o_req3 o)).
  repeat bm; cbn [p_sent1 p_sent2 failed]; auto.
Qed.

(* what a completed handshake leaves, whatever the peer sent: a method among those offered, and
   both stream directions under the cipher of that method *)
Lemma initiator_ok ya padA provide lenC ia o incoming chunks :
  let a := initiator ya padA provide lenC ia o incoming chunks in
  p_err a = 0 -> sel_valid (p_sel a) provide = true /\
    exists e d, p_enc a = cipher_for (p_sel a) e /\ p_dec a = cipher_for (p_sel a) d.
Proof.
  cbv zeta. unfold initiator.
  break_match; cbn [p_err p_sel p_enc p_dec]; intros _.
  split; [apply negb_false_iff; assumption|eauto].
Qed.

Lemma responder_ok yb padB lenD pol polk o known incoming chunks :
  let b := responder yb padB lenD pol polk o known incoming chunks in
  p_err b = 0 -> exists provide, p_sel b = sel_policy pol polk provide /\ sel_valid (p_sel b) provide = true /\
    exists e d, p_enc b = cipher_for (p_sel b) e /\ p_dec b = cipher_for (p_sel b) d.
Proof.
  cbv zeta. unfold responder.
  break_match; cbn [p_err p_sel p_enc p_dec]; intros _.
  eexists. split; [reflexivity|]. split; [apply negb_false_iff; assumption|eauto].
Qed.

Lemma cipher_for_rc4 sel c : sel <> 1 -> cipher_for sel c = CRc4 c.
Proof. intro H. unfold cipher_for. destruct (Z.eqb_spec sel 1); [contradiction|reflexivity]. Qed.

(* forced encryption, initiator: only RC4 is offered; whatever the peer answers, a completed handshake
   never leaves the stream in clear text *)
Lemma initiator_forced ya padA lenC ia o incoming chunks :
  let a := initiator ya padA 2 lenC ia o incoming chunks in
  p_err a = 0 -> p_sel a <> 1 /\ (exists c, p_enc a = CRc4 c) /\ (exists c, p_dec a = CRc4 c).
Proof.
  cbv zeta. intro H. destruct (initiator_ok _ _ _ _ _ _ _ _ H) as (Hs & e & d & -> & ->).
  apply sel_valid_forced_not_plain in Hs. rewrite !cipher_for_rc4 by exact Hs. eauto.
Qed.

(* forced encryption, responder (policy 1): a completed handshake selected RC4 *)
Lemma responder_forced yb padB lenD k o known incoming chunks :
  let b := responder yb padB lenD 1 k o known incoming chunks in
  p_err b = 0 -> p_sel b = 2 /\ (exists c, p_enc b = CRc4 c) /\ (exists c, p_dec b = CRc4 c).
Proof.
  cbv zeta. intro H. destruct (responder_ok _ _ _ _ _ _ _ _ _ H) as (p & Es & Hs & e & d & -> & ->).
  destruct (sel_policy_forced k p) as [E|E]; rewrite <- Es in E; rewrite E in *; [discriminate Hs|].
  rewrite !cipher_for_rc4 by discriminate. eauto.
Qed.

(* an initiator that gets the second message and nothing more does not complete *)
Lemma initiator_no_reply ya padA provide lenC ia o yb padB chunks f :
  first_read chunks 0 = Some f -> f <= 96 + zlen padB -> zlen yb = 96 ->
  no_early (fst (rc4_xor (rc4_init (o_keyB o)) vc)) (skipn (Z.to_nat f) (yb ++ padB)) ->
  p_err (initiator ya padA provide lenC ia o (yb ++ padB) chunks) <> 0.
Proof.
  intros Hf Hfle Hyb Hne. unfold initiator.
  destruct (provide =? 0); [cbn; lia|]. destruct (65535 <? zlen ia); [cbn; lia|]. rewrite Hf.
  destruct (rc4_xor (rc4_init (o_keyA o)) _) as [bd e1].
  pose proof (rc4_xor_zlen (rc4_init (o_keyB o)) vc : _ = 8) as Lv.
  destruct (rc4_xor (rc4_init (o_keyB o)) vc) as [vcenc d1]. cbn [fst] in Hne, Lv.
  pose proof (read_sync_not_found vcenc _ (616 - f) ltac:(unfold zlen in Lv; lia) Hne) as N.
  rewrite N. cbn [p_err failed]. apply read_sync_err_of_none, N.
Qed.

Section Run.
  Variables (ya padA yb padB ia : list Z) (provide lenC lenD pol polk : Z) (o : oracle) (known : list Z).
  Variables (chunksAB chunksBA : list Z) (f1 f2 : Z).
  Hypothesis Hya : zlen ya = 96.
  Hypothesis Hyb : zlen yb = 96.
  Hypothesis Hr1 : zlen (o_req1 o) = 20.
  Hypothesis Hr2 : zlen (o_req2 o) = 20.
  Hypothesis Hr3 : zlen (o_req3 o) = 20.
  Hypothesis Hprov : 0 < provide < 4294967296.
  Hypothesis HlenC : 0 <= lenC < 65536.
  Hypothesis HlenD : 0 <= lenD < 65536.
  Hypothesis Hia : zlen ia < 65536.
  Hypothesis Hpolk : 0 <= polk < 4294967296.
  (* pads as the protocol allows them *)
  Hypothesis HpadA : zlen padA <= 512.
  Hypothesis HpadB : zlen padB <= 512.
  (* the transport: the first read of each side returns between 96 bytes and the whole first message *)
  Hypothesis Hf1 : first_read chunksAB 0 = Some f1.
  Hypothesis Hf1le : f1 <= 96 + zlen padA.
  Hypothesis Hf2 : first_read chunksBA 0 = Some f2.
  Hypothesis Hf2le : f2 <= 96 + zlen padB.
  (* the synchronisation patterns (a SHA-1 value, 8 key stream bytes) do not occur in the random padding *)
  Hypothesis HneA : no_early (o_req1 o) (skipn (Z.to_nat f1) (ya ++ padA)).
  Hypothesis HneB : no_early (fst (rc4_xor (rc4_init (o_keyB o)) vc)) (skipn (Z.to_nat f2) (yb ++ padB)).

  Let sel := sel_policy pol polk provide.
  Let r := honest ya padA provide lenC ia o yb padB lenD pol polk o known chunksAB chunksBA.

  (* the responder's outcome; the initiator then runs on what the responder sent *)
  Lemma honest_b :
    u_b r = if negb (list_eqb_Z (o_req2 o) known) then failed (yb ++ padB) [] 3
            else if negb (sel_valid sel provide) then failed (yb ++ padB) [] 6
            else {| p_sent1 := yb ++ padB; p_sent2 := fst (rc4_xor (rc4_init (o_keyB o)) (hs4 sel lenD));
                    p_err := 0; p_sel := sel; p_ia := ia; p_rest := [];
                    p_enc := cipher_for sel (snd (rc4_xor (rc4_init (o_keyB o)) (hs4 sel lenD)));
                    p_dec := cipher_for sel (snd (rc4_xor (rc4_init (o_keyA o)) (hs3 provide lenC ia))) |}.
  Proof.
    unfold r, honest. cbn [u_b].
    destruct (initiator_sends ya padA provide lenC ia o (yb ++ padB) chunksBA f2 Hf2 ltac:(lia) ltac:(lia)) as [-> ->].
    rewrite <- (app_nil_r (o_req1 o ++ _)). apply responder_honest with (f := f1); assumption.
  Qed.

  Lemma honest_a : u_a r = initiator ya padA provide lenC ia o (p_sent1 (u_b r) ++ p_sent2 (u_b r) ++ []) chunksBA.
  Proof. rewrite app_nil_r. reflexivity. Qed.

  (* ... and completes when the responder accepted *)
  Lemma honest_a_ok : known = o_req2 o -> sel_valid sel provide = true ->
    u_a r = {| p_sent1 := ya ++ padA;
               p_sent2 := o_req1 o ++ xor20 (o_req2 o) (o_req3 o) ++ fst (rc4_xor (rc4_init (o_keyA o)) (hs3 provide lenC ia));
               p_err := 0; p_sel := sel; p_ia := []; p_rest := [];
               p_enc := cipher_for sel (snd (rc4_xor (rc4_init (o_keyA o)) (hs3 provide lenC ia)));
               p_dec := cipher_for sel (snd (rc4_xor (rc4_init (o_keyB o)) (hs4 sel lenD))) |}.
  Proof.
    intros Hk Hsel. rewrite honest_a, honest_b, Hk, list_eqb_Z_refl, Hsel. cbn [negb p_sent1 p_sent2].
    apply initiator_honest with (f := f2); assumption.
  Qed.

  (* same key on both sides, a valid selection: both complete, agree on an offered method, the initial
     payload arrives intact and so does every byte written afterwards, in both directions *)
  Theorem honest_run_agrees : known = o_req2 o -> sel_valid sel provide = true ->
    p_err (u_a r) = 0 /\ p_err (u_b r) = 0 /\ p_sel (u_a r) = sel /\ p_sel (u_b r) = sel /\
    sel_valid sel provide = true /\ p_ia (u_b r) = ia /\
    (forall d, recv (u_b r) (send (u_a r) d) = d) /\ (forall d, recv (u_a r) (send (u_b r) d) = d).
  Proof.
    intros Hk Hsel. rewrite honest_a_ok, honest_b, Hk, list_eqb_Z_refl, Hsel by assumption.
    cbn [negb p_err p_sel p_ia]. repeat split; try reflexivity; try exact Hsel.
    all: intro d; unfold recv, send; cbn [p_rest p_enc p_dec app]; rewrite cxor_inv; reflexivity.
  Qed.

  (* a responder that refuses before answering leaves the initiator with the public key and pad only *)
  Lemma responder_refusal_fails_both e : e <> 0 -> u_b r = failed (yb ++ padB) [] e ->
    p_err (u_a r) <> 0 /\ p_err (u_b r) <> 0.
  Proof.
    intros He Hb. rewrite honest_a, Hb. cbn [p_sent1 p_sent2 failed p_err app]. rewrite app_nil_r.
    split; [|exact He]. exact (initiator_no_reply ya padA provide lenC ia o yb padB chunksBA f2 Hf2 Hf2le Hyb HneB).
  Qed.

  (* same key, but the responder's choice is not a single offered method: both sides fail *)
  Theorem honest_run_invalid_selection : known = o_req2 o -> sel_valid sel provide = false ->
    p_err (u_a r) <> 0 /\ p_err (u_b r) <> 0.
  Proof.
    intros Hk Hsel. apply (responder_refusal_fails_both 6); [discriminate|].
    rewrite honest_b, Hk, list_eqb_Z_refl, Hsel. reflexivity.
  Qed.

  (* a wrong key (the responder does not know the stream key the initiator used): nobody completes *)
  Theorem wrong_key_never_completes : known <> o_req2 o ->
    p_err (u_a r) <> 0 /\ p_err (u_b r) <> 0.
  Proof.
    intros Hk. apply (responder_refusal_fails_both 3); [discriminate|].
    rewrite honest_b, (list_eqb_Z_neq (o_req2 o) known) by congruence. reflexivity.
  Qed.
End Run.

(* why both sides hold the same secret: the Diffie-Hellman exchange (the oracle values of the two sides
   are derived from it by SHA-1; that derivation is not modelled) *)
From Coq Require Import Zpow_facts.
Lemma dh_shared_secret g xa xb p : 0 < p -> 0 <= xa -> 0 <= xb ->
  ((g ^ xb mod p) ^ xa) mod p = ((g ^ xa mod p) ^ xb) mod p.
Proof.
  intros Hp Ha Hb. rewrite <- !Zpower_mod by exact Hp. rewrite <- !Z.pow_mul_r by assumption. f_equal. f_equal. lia.
Qed.

(* a concrete run (the premises of the theorems above are met by real executions; the correspondence check
   compares thousands of them byte for byte with the implementation) *)
Example honest_concrete :
  let o := {| o_req1 := repeat 11 20; o_req2 := repeat 12 20; o_req3 := repeat 13 20; o_keyA := repeat 14 20; o_keyB := repeat 15 20 |} in
  let r := honest (repeat 7 96) [1; 2; 3] 3 2 [9; 9] o (repeat 8 96) [4] 1 0 0 o (repeat 12 20) [99; 5; 200] [97; 40] in
  (p_err (u_a r), p_err (u_b r), p_sel (u_a r), p_sel (u_b r), p_ia (u_b r),
   recv (u_b r) (send (u_a r) [1; 2; 3]), recv (u_a r) (send (u_b r) [250; 0]), list_eqb_Z (send (u_a r) [1; 2; 3]) [1; 2; 3])
  = (0, 0, 2, 2, [9; 9], [1; 2; 3], [250; 0], false).
Proof.
  intros o r. subst r.
  assert (Hne : forall key, no_early key []) by (intros key k Hk; inversion Hk).
  (* both first reads return the whole first message, so nothing precedes the synchronisation patterns;
     only the ciphertext of the last component needs the key stream *)
  destruct (honest_run_agrees (repeat 7 96) [1; 2; 3] (repeat 8 96) [4] [9; 9] 3 2 1 0 0 o (repeat 12 20)
              [99; 5; 200] [97; 40] 99 97) as (-> & -> & -> & -> & _ & -> & -> & ->);
    [first [apply Hne | vm_compute; intuition discriminate]..|].
  rewrite honest_a_ok with (f1 := 99) (f2 := 97);
    [vm_compute; reflexivity|first [apply Hne | vm_compute; intuition discriminate]..].
Qed.
