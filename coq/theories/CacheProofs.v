(* cachedpiece: reads through cache blocks return exactly the requested bytes.
   piececache: the LRU model never exceeds its size bound. *)
From RainV Require Import Lib SectionIO SectionIOProofs Cache.

Lemma slice_nil_len c off : slice c off 0 = [].
Proof. reflexivity. Qed.

Lemma firstn_slice c b len k : firstn (Z.to_nat k) (slice c b len) = slice c b (Z.min k len).
Proof. unfold slice. rewrite firstn_firstn. f_equal. lia. Qed.

Lemma firstn_split {A} : forall (m k : nat) (l : list A), firstn m l ++ firstn k (skipn m l) = firstn (m + k) l.
Proof.
  induction m as [|m IH]; intros k l; [reflexivity|]. destruct l as [|x r]; [cbn; rewrite firstn_nil; reflexivity|].
  cbn [firstn skipn plus app]. f_equal. apply IH.
Qed.

Lemma slice_app c off m n : 0 <= off -> 0 <= m <= n ->
  slice c off m ++ slice c (off + m) (n - m) = slice c off n.
Proof.
  intros Ho Hm. unfold slice.
  replace (Z.to_nat (off + m)) with (Z.to_nat off + Z.to_nat m)%nat by lia.
  rewrite <- skipn_skipn. rewrite firstn_split. f_equal. lia.
Qed.

Lemma read_once_spec c plen rs b off n : 0 < rs -> 0 <= b -> b * rs <= off < (b + 1) * rs ->
  read_once c plen rs off n = slice c off (Z.min n (Z.min (b * rs + rs) plen - off)).
Proof.
  intros Hrs Hb Hbo. unfold read_once, block_of.
  replace (off / rs) with b by (apply Z.div_unique with (r := off - b * rs); lia).
  rewrite skipn_slice, firstn_slice by lia. f_equal; lia.
Qed.

(* the loop is exact as long as the fuel covers the cache blocks from off's block b to the end of the request *)
Theorem read_loop_exact c plen rs : zlen c = plen -> 0 < rs -> forall fuel b off n,
  0 <= b -> b * rs <= off < (b + 1) * rs -> 0 <= n -> off + n <= plen ->
  off + n <= (b + Z.of_nat fuel) * rs ->
  read_loop fuel c plen rs off n = slice c off n.
Proof.
  intros Hc Hrs. induction fuel as [|f IH]; intros b off n Hb Hbo Hn Hin Hf.
  - replace n with 0 by lia. reflexivity.
  - cbn [read_loop]. destruct (Z.leb_spec n 0) as [En|En]; [replace n with 0 by lia; reflexivity|].
    rewrite (read_once_spec c plen rs b) by lia.
    set (m := Z.min n (Z.min (b * rs + rs) plen - off)).
    assert (Hlen : zlen (slice c off m) = m) by (apply slice_len; lia).
    destruct (slice c off m) as [|x r] eqn:Es; [cbn in Hlen; lia|].
    rewrite <- Es in Hlen |- *. rewrite Hlen.
    destruct (Z.eq_dec m n) as [->|Hne].
    + rewrite Z.sub_diag. destruct f; cbn [read_loop]; rewrite app_nil_r; reflexivity.
    + rewrite (IH (b + 1)); [apply slice_app; lia|lia..].
Qed.

(* C03 core (arithmetic half): whatever the cache block size, a read inside the piece returns
   exactly the requested bytes -- after fix D2 *)
Theorem cached_read_exact c plen rs off n : zlen c = plen -> 0 < rs -> 0 <= off -> 0 <= n -> off + n <= plen ->
  cached_read true c plen rs off n = slice c off n.
Proof.
  intros Hc Hrs Ho Hn Hin. unfold cached_read. apply read_loop_exact with (b := off / rs); try assumption.
  - apply Z.div_pos; lia.
  - Z.div_mod_to_equations. lia.
  - rewrite Nat2Z.inj_add, Z2Nat.id by (apply Z.div_pos; lia). Z.div_mod_to_equations. nia.
Qed.

Theorem cached_read_refuted_pinned : exists c plen rs off n,
  zlen c = plen /\ 0 < rs /\ 0 <= off /\ 0 <= n /\ off + n <= plen /\
  cached_read false c plen rs off n <> slice c off n.
Proof.
  exists (map Z.of_nat (seq 0 20)), 20, 8, 6, 5. repeat split; try lia; try reflexivity.
  vm_compute. discriminate.
Qed.

Definition csum (l : list citem) : Z := fold_right (fun x a => csize x + a) 0 l.

Record CInv (c : cache) : Prop := {
  ci_total : ctotal c = csum (citems c);
  ci_nonneg : Forall (fun x => 0 <= csize x) (citems c);
  ci_keys : NoDup (map ckey (citems c));
  ci_bound : 0 <= cmax c -> ctotal c <= cmax c
}.

Lemma csum_cons x r : csum (x :: r) = csize x + csum r.
Proof. reflexivity. Qed.

Lemma csum_app a b : csum (a ++ b) = csum a + csum b.
Proof. induction a as [|x r IH]; [reflexivity|]. cbn [app]. rewrite !csum_cons, IH. lia. Qed.

Lemma csum_nonneg l : Forall (fun x => 0 <= csize x) l -> 0 <= csum l.
Proof. induction 1; [reflexivity|]. rewrite csum_cons. lia. Qed.

Lemma csum_map l : csum l = fold_right Z.add 0 (map csize l).
Proof. induction l as [|x r IH]; [reflexivity|]. rewrite csum_cons, IH. reflexivity. Qed.

(* a hit restamps the item and changes neither keys nor sizes *)
Lemma touch_fields k t l :
  let l' := map (fun x => if ckey x =? k then {| ckey := k; csize := csize x; cstamp := t |} else x) l in
  map ckey l' = map ckey l /\ map csize l' = map csize l.
Proof.
  induction l as [|x r [IH1 IH2]]; [split; reflexivity|]. cbn [map]. rewrite IH1, IH2.
  destruct (ckey x =? k) eqn:E; cbn [ckey csize]; split; f_equal; lia.
Qed.

Lemma cache_get_cmax c k size : cmax (fst (cache_get c k size)) = cmax c.
Proof.
  unfold cache_get. destruct (find_item _ _); [reflexivity|]. destruct (_ >? _); [reflexivity|].
  destruct (make_room _ _ _ _ _); reflexivity.
Qed.

Lemma oldest_in : forall l b, exists o, oldest l (Some b) = Some o /\ In o (b :: l).
Proof.
  induction l as [|x r IH]; intros b; cbn [oldest]; [exists b; split; [reflexivity|left; reflexivity]|].
  destruct (cstamp x <? cstamp b); [destruct (IH x) as (o & Ho & Hin)|destruct (IH b) as (o & Ho & Hin)];
    exists o; cbn [In] in *; tauto.
Qed.

Lemma remove_key_spec : forall l o, NoDup (map ckey l) -> In o l ->
  csum (remove_key (ckey o) l) = csum l - csize o /\
  incl (remove_key (ckey o) l) l /\
  NoDup (map ckey (remove_key (ckey o) l)) /\
  length (remove_key (ckey o) l) = pred (length l).
Proof.
  induction l as [|x r IH]; intros o Hnd Hin; [destruct Hin|].
  inversion Hnd as [|? ? Hnx Hr]; subst. cbn [remove_key]. rewrite csum_cons.
  destruct (Z.eqb_spec (ckey x) (ckey o)) as [E|E].
  - (* keys are distinct, so the first item with [o]'s key is [o] *)
    destruct Hin as [->|H]; [|destruct Hnx; rewrite E; apply in_map; exact H].
    repeat split; [lia|apply incl_tl, incl_refl|exact Hr].
  - destruct Hin as [->|Hin]; [congruence|]. destruct (IH o Hr Hin) as (H1 & H2 & H3 & H4).
    rewrite csum_cons. cbn [length map].
    repeat split; [lia| | |].
    + apply incl_cons; [left; reflexivity|apply incl_tl; exact H2].
    + constructor; [|exact H3]. intros Hc. exact (Hnx (incl_map ckey H2 _ Hc)).
    + destruct r; [destruct Hin|]. cbn [length] in *. lia.
Qed.

Lemma make_room_spec : forall fuel l total mx need,
  total = csum l -> NoDup (map ckey l) -> need <= mx -> (length l < fuel)%nat ->
  let '(l', t') := make_room fuel l total mx need in
  t' = csum l' /\ NoDup (map ckey l') /\ t' + need <= mx /\ incl l' l.
Proof.
  induction fuel as [|f IH]; intros l total mx need Ht Hnd Hneed Hf; [lia|].
  cbn [make_room]. destruct (mx - total <? need) eqn:E.
  - destruct l as [|x r].
    + cbn [oldest]. cbn in Ht. exfalso. lia.
    + cbn [oldest]. destruct (oldest_in r x) as (o & Ho & Hin). rewrite Ho.
      destruct (remove_key_spec (x :: r) o Hnd Hin) as (H1 & H2 & H3 & H4).
      specialize (IH (remove_key (ckey o) (x :: r)) (total - csize o) mx need).
      destruct (make_room f _ _ mx need) as [l' t'].
      destruct IH as (I1 & I2 & I3 & I4); [lia|exact H3|lia|cbn [length] in *; lia|].
      repeat split; auto. exact (incl_tran I4 H2).
  - repeat split; [exact Ht|exact Hnd|lia|apply incl_refl].
Qed.

Lemma find_item_in k l it : find_item k l = Some it -> In it l /\ ckey it = k.
Proof.
  induction l as [|x r IH]; cbn [find_item]; [discriminate|]. destruct (ckey x =? k) eqn:E.
  - intros H; inversion H; subst. split; [left; reflexivity|lia].
  - intros H. destruct (IH H). split; [right; assumption|assumption].
Qed.

Lemma find_item_none k l : find_item k l = None -> ~ In k (map ckey l).
Proof.
  induction l as [|x r IH]; cbn [find_item map In]; [tauto|]. destruct (ckey x =? k) eqn:E; [discriminate|].
  intros H [Hx|Hx]; [lia|]. exact (IH H Hx).
Qed.

Theorem cache_get_inv c k size : CInv c -> 0 <= size -> CInv (fst (cache_get c k size)).
Proof.
  intros [Ht Hnn Hk Hb] Hs. unfold cache_get. destruct (find_item k (citems c)) as [it|] eqn:Ef.
  - destruct (touch_fields k (ctick c + 1) (citems c)) as [Hkey Hsz].
    cbn [fst]. constructor; cbn [citems ctotal cmax]; [| | |exact Hb].
    + rewrite Ht, !csum_map, Hsz. reflexivity.
    + apply (Forall_map csize (fun z => 0 <= z)). rewrite Hsz. apply Forall_map. exact Hnn.
    + rewrite Hkey. exact Hk.
  - destruct (size >? cmax c) eqn:Eg; cbn [fst].
    + constructor; cbn [citems ctotal cmax]; assumption.
    + pose proof (make_room_spec (S (length (citems c))) (citems c) (ctotal c) (cmax c) size Ht Hk ltac:(lia) ltac:(lia)) as Hm.
      destruct (make_room _ _ _ _ _) as [l tot]. destruct Hm as (M1 & M3 & M4 & M5). cbn [fst].
      constructor; cbn [citems ctotal cmax].
      * rewrite M1, csum_app. cbn. lia.
      * apply Forall_app. split; [exact (incl_Forall M5 Hnn)|repeat constructor; cbn; lia].
      * rewrite map_app. cbn [map]. apply NoDup_app_one; [exact M3|]. intros Hin. exact (find_item_none _ _ Ef (incl_map ckey M5 _ Hin)).
      * intros _. lia.
Qed.

Lemma cache_init_inv mx : CInv (cache_init mx).
Proof. constructor; cbn; [reflexivity|constructor|constructor|lia]. Qed.

(* for every sequence of Get calls the cached bytes never exceed the configured size *)
Theorem cache_bounded mx : 0 <= mx -> forall ops : list (Z * Z), Forall (fun o => 0 <= snd o) ops ->
  let c := fold_left (fun c o => fst (cache_get c (fst o) (snd o))) ops (cache_init mx) in
  CInv c /\ 0 <= ctotal c <= mx.
Proof.
  intros Hmx ops Hops c. assert (H : CInv c /\ cmax c = mx).
  { apply (fold_left_inv_Forall _ (fun c => CInv c /\ cmax c = mx) _) with (2 := Hops).
    - intros c0 o [Hc Hm] Ho. split; [apply cache_get_inv; assumption|rewrite cache_get_cmax; exact Hm].
    - split; [apply cache_init_inv|reflexivity]. }
  destruct H as [Hc Hm]. split; [exact Hc|].
  destruct Hc as [Ht Hnn _ Hb]. rewrite Hm in Hb. pose proof (csum_nonneg _ Hnn). lia.
Qed.
