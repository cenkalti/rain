(* C05 on the lifecycle model: at every instant of every history in which nobody but the client
   touches the files, a piece in the bitfield -- and a piece in the bitfield persisted in the resume
   database -- has its content on disk; whatever subset of files is lost at the crash, the restarted
   client holds only pieces whose content is on disk. *)
From RainV Require Import Lib Life LifeProofs.

Definition sub (a b : list bool) : Prop := forall n, nth n a false = true -> nth n b false = true.
Definition osub (a : option (list bool)) (b : list bool) : Prop := match a with Some x => sub x b | None => True end.

Lemma sub_refl a : sub a a. Proof. intros n H; exact H. Qed.
Lemma sub_trans a b c : sub a b -> sub b c -> sub a c. Proof. intros H1 H2 n H. auto. Qed.
(* setting bit [i] adds index [i], if the list has it, and nothing else *)
Lemma nth_setb : forall l i n,
  nth n (setb l i true) false = true <-> nth n l false = true \/ n = i /\ (i < length l)%nat.
Proof.
  induction l as [|x r IH]; intros [|i] [|n]; cbn [setb nth length]; rewrite ?IH; intuition (discriminate || lia).
Qed.

Lemma sub_setb_r a b i : sub a b -> sub a (setb b i true).
Proof. intros H n Hn. apply nth_setb. left. auto. Qed.

Lemma sub_setb a b i : sub a b -> (i < length b)%nat -> sub (setb a i true) (setb b i true).
Proof. intros H Hi n Hn. apply nth_setb. apply nth_setb in Hn as [E|[-> _]]; [left; apply H, E|right; auto]. Qed.

(* the environment: only the client writes to the files; allocation does not change which pieces are
   on disk; padding-only pieces (zeros) are "on disk" from the start *)
Definition env_ok (s : life) (e : levent) : Prop :=
  match e with
  | EMutate _ _ => False
  | EAlloc _ _ po pk _ => pk = pok s /\ sub po (pok s)
  | EPiece i => (Z.to_nat i < length (pok s))%nat
  | _ => True
  end.

Definition life_init_c (fx pk : list bool) (nf : Z) : life :=
  {| started := false; stopping := false; alloc := false; verif := false; completed := false;
     complC_closed := false; has_pieces := false; bf := None; do_verify := false; held := 0; pending := 0; leaked := 0;
     persisted := None; fexists := fx; pok := pk; nfiles := nf; restart := false; crashed := false |}.
Fixpoint run_evs_c (s : life) (es : list levent) : life :=
  match es with [] => s | e :: r => run_evs_c (apply_ev true s e) r end.

Record BInv (s : life) : Prop := {
  bi_bf : osub (bf s) (pok s);
  bi_pers : osub (persisted s) (pok s)
}.

(* [BInv] with the disk named: every handler but a piece write leaves the disk [k] alone and keeps
   the bitfield and the persisted bitfield within it *)
Definition behind (k : list bool) (s : life) : Prop := pok s = k /\ osub (bf s) k /\ osub (persisted s) k.

Lemma binv_behind s : BInv s -> behind (pok s) s.
Proof. intros [A B]; repeat split; assumption. Qed.
Lemma behind_binv k s : behind k s -> BInv s.
Proof. intros (<- & A & B); constructor; assumption. Qed.

Lemma behind_set k s st sp al ve co cc hp b dv h pd lk pe cr :
  pok s = k -> osub b k -> osub pe k -> behind k (set s st sp al ve co cc hp b dv h pd lk pe cr).
Proof. intros; repeat split; assumption. Qed.

(* a state with the bitfield, persisted bitfield and disk of [s], or the same without a bitfield *)
Lemma behind_same k s s' : pok s' = pok s -> bf s' = bf s -> persisted s' = persisted s -> behind k s -> behind k s'.
Proof. unfold behind. intros -> -> ->. exact (fun H => H). Qed.
Lemma behind_nobf k s s' : pok s' = pok s -> bf s' = None -> persisted s' = persisted s -> behind k s -> behind k s'.
Proof. unfold behind. intros -> -> -> (P & _ & Y). repeat split; assumption. Qed.

Lemma behind_check k s : behind k s -> behind k (check_completion s).
Proof.
  intros H. unfold check_completion. destruct (completed s); [exact H|]. destruct (bf s) as [b|] eqn:E; [|exact H].
  destruct (all_true b); [|exact H]. revert H. apply behind_same; [reflexivity|symmetry; exact E|reflexivity].
Qed.
Lemma behind_reset k f s : behind k s -> behind k (reset_completion f s).
Proof. destruct f; [apply behind_same; reflexivity|exact (fun H => H)]. Qed.
Lemma behind_start_verifier k s : behind k s -> behind k (start_verifier s).
Proof. apply behind_same; reflexivity. Qed.
(* a stop persists the bitfield *)
Lemma behind_stop k f s : behind k s -> behind k (do_stop f s).
Proof.
  intros H. unfold do_stop. destruct (negb (started s) || stopping s); [destruct f; exact H|].
  destruct H as (P & X & Y). apply behind_set; [assumption ..|]. destruct (bf s); assumption.
Qed.
Lemma behind_start k f s : behind k s -> behind k (do_start f s).
Proof.
  intros H. unfold do_start. destruct (started s); [destruct (f && stopping s); exact H|]. cbn [has_pieces bf set].
  destruct (has_pieces s); [destruct (bf s) eqn:E|]; revert H; apply behind_same; auto.
Qed.

Lemma behind_verify_cmd k s : behind k s -> behind k (do_verify_cmd true s).
Proof.
  intros H. unfold do_verify_cmd. cbn [started set].
  destruct (negb (started s)); [apply behind_start; revert H; apply behind_nobf|apply behind_stop; revert H; apply behind_same]; reflexivity.
Qed.
Lemma behind_stopped_done k s : behind k s -> behind k (stopped_done true s).
Proof.
  intros H. unfold stopped_done. destruct (negb (stopping s)); [exact H|]. cbn [do_verify set with_restart].
  destruct (do_verify s); [apply behind_start; revert H; apply behind_nobf; reflexivity|].
  destruct (true && restart s); [apply behind_start|]; revert H; apply behind_same; reflexivity.
Qed.

(* the shared end of the two result handlers: stop (a verify request waits) or check for completion;
   [s'] is [s] with the request cleared, and only bitfield, persisted bitfield and disk matter *)
Lemma behind_settle k (c : bool) s s' : behind k s -> pok s' = pok s -> bf s' = bf s -> persisted s' = persisted s ->
  behind k (if c then do_stop true s' else check_completion s).
Proof. intros H E1 E2 E3. destruct c; [apply behind_stop; revert H; apply behind_same; assumption|apply behind_check, H]. Qed.

(* the verifier's bitfield is the disk *)
Lemma behind_verify_done k s : behind k s -> behind k (verify_done true s).
Proof.
  intros H. unfold verify_done. destruct (negb (verif s)); [exact H|]. cbv zeta.
  apply behind_settle; [|reflexivity ..]. destruct H as (P & _ & _).
  destruct (all_true (pok s)); [|apply (behind_reset k true)]; apply behind_set; try exact P; rewrite P; apply sub_refl.
Qed.

Lemma behind_after_missing k he po s2 : sub po k -> behind k s2 -> behind k (after_missing he po s2).
Proof.
  intros Hp H. unfold after_missing. destruct (negb he); [|apply behind_start_verifier, H]. cbv zeta.
  apply behind_settle; [|reflexivity ..]. destruct H as (P & _ & _).
  destruct (all_true po); [|apply (behind_reset k true)]; apply behind_set; assumption.
Qed.

Lemma behind_dropped k s : pok s = k -> behind k (dropped s).
Proof. intros P. apply behind_set; [exact P|exact I ..]. Qed.

Lemma behind_alloc_done k s he hm po : sub po k -> behind k s -> behind k (alloc_done true s he hm po).
Proof.
  intros Hp H. rewrite alloc_done_eq. destruct (negb (alloc s)); [exact H|].
  assert (H1 : behind k (allocated s)) by (revert H; apply behind_same; reflexivity).
  destruct (match bf s with Some _ => negb hm | None => false end); [apply behind_check, H1|].
  apply behind_after_missing; [exact Hp|]. destruct hm; [apply behind_dropped, H1|exact H1].
Qed.

(* a downloaded piece is content on disk: the disk grows with the bitfield *)
Lemma binv_piece_written s i : (Z.to_nat i < length (pok s))%nat -> BInv s -> BInv (piece_written s i).
Proof.
  intros Hi [A B]. unfold piece_written. destruct (bf s) as [b|] eqn:Eb; [|constructor; rewrite ?Eb; assumption].
  destruct (negb (status s =? 1) || nth (Z.to_nat i) b true); [constructor; cbn; rewrite ?Eb; assumption|].
  match goal with |- context [check_completion ?x] => set (s1 := x) end.
  assert (H : behind (pok s1) (check_completion s1)).
  { apply behind_check. repeat split; cbn.
    - apply sub_setb; assumption.
    - destruct (persisted s); [apply sub_setb_r, B|exact I]. }
  destruct (completed (check_completion s1) && negb (completed s1) && negb (crashed (check_completion s1))); [|exact (behind_binv _ _ H)].
  destruct H as (P & X & _). apply (behind_binv (pok s1)), behind_set; assumption.
Qed.

Lemma binv_apply s e : BInv s -> env_ok s e -> BInv (apply_ev true s e).
Proof.
  intros H He. pose proof (binv_behind s H) as Hb. destruct e; cbn [apply_ev].
  (* commands and worker results leave the disk [pok s] alone; piece, mutate and persist follow *)
  1-6: apply (behind_binv (pok s)).
  - apply behind_start, Hb.
  - apply behind_stop, Hb.
  - apply behind_verify_cmd, Hb.
  - destruct He as [-> Hp]. apply behind_alloc_done; [exact Hp|]. revert Hb. apply behind_same; reflexivity.
  - apply behind_verify_done, Hb.
  - apply behind_stopped_done, Hb.
  - apply binv_piece_written; assumption.
  - destruct He.
  - destruct H as [A B]. destruct (bf s) eqn:Eb; constructor; cbn; rewrite ?Eb in *; assumption.
Qed.

Fixpoint all_env (s : life) (es : list levent) : Prop :=
  match es with [] => True | e :: r => env_ok s e /\ all_env (apply_ev true s e) r end.

Theorem persisted_behind_disk fx pk nf es : all_env (life_init_c fx pk nf) es ->
  BInv (run_evs_c (life_init_c fx pk nf) es).
Proof.
  assert (H0 : BInv (life_init_c fx pk nf)) by (constructor; exact I).
  revert H0. generalize (life_init_c fx pk nf). induction es as [|e r IH]; intros s H He; cbn in *; [exact H|].
  destruct He as [E1 E2]. apply IH; [apply binv_apply; assumption|exact E2].
Qed.

(* the three outcomes of a restart; the resume bitfield is kept only when no file is missing *)
Lemma restart_bits_cases f pers po pk fex :
  let r := fst (restart_bits f pers po pk fex) in
  (exists b, pers = Some b /\ existsb negb fex = false /\ r = b) \/ r = po \/ r = pk.
Proof.
  unfold restart_bits. destruct pers as [b|]; cbn.
  - destruct (existsb negb fex); cbn; [destruct (negb (existsb (fun b => b) fex)); auto|left; exists b; auto].
  - destruct (negb (existsb (fun b => b) fex)); auto.
Qed.

(* the persisted bitfield has to lie within the disk only when no file is missing: otherwise it is not read *)
Lemma restart_sound_gen pers padonly pk fex : (existsb negb fex = false -> osub pers pk) -> sub padonly pk ->
  sub (fst (restart_bits true pers padonly pk fex)) pk.
Proof.
  intros H1 H2. destruct (restart_bits_cases true pers padonly pk fex) as [(b & -> & E & ->)|[->| ->]];
    [exact (H1 E)|exact H2|apply sub_refl].
Qed.

(* the restart: whatever files were lost, the restarted client holds only pieces whose content is on disk *)
Theorem restart_sound pers padonly pk fex : osub pers pk -> sub padonly pk ->
  sub (fst (restart_bits true pers padonly pk fex)) pk.
Proof. intros H1. apply restart_sound_gen. intros _. exact H1. Qed.

Theorem missing_files_are_not_trusted b padonly pk fex : existsb negb fex = true ->
  fst (restart_bits true (Some b) padonly pk fex) = padonly \/ fst (restart_bits true (Some b) padonly pk fex) = pk.
Proof.
  intros H. destruct (restart_bits_cases true (Some b) padonly pk fex) as [(_ & _ & E & _)|Hr]; [congruence|exact Hr].
Qed.

(* files deleted behind the client's back break the invariant only until the next allocation
   result is handled: whatever the state was, once missing files have been noticed the bitfield and
   the bitfield in the resume database describe the disk again *)
Theorem missing_files_restore_the_invariant s he po : alloc s = true -> sub po (pok s) ->
  BInv (alloc_done true s he true po).
Proof.
  intros Ea Hp. rewrite alloc_done_eq, Ea. cbn [negb].
  replace (match bf s with Some _ => false | None => false end) with false by (destruct (bf s); reflexivity).
  apply (behind_binv (pok s)), behind_after_missing; [exact Hp|]. apply behind_dropped. reflexivity.
Qed.
