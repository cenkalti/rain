(* Proofs about NewPieces: for every well-formed info the loop terminates without panicking and
   the sections of the pieces, in order, chain through the concatenated files gap-free and
   overlap-free; piece lengths are PL except the last. *)
From RainV Require Import Lib Geometry.
From Coq Require Import ZifyBool.

(* what the acceptance checks of NewInfo establish (MetaProofs.accept_wf): non-negative file lengths
   summing to L, and n pieces of length PL covering L with a non-empty last piece *)
Record wf_info (files : list file) (PL : Z) (n : nat) (L : Z) : Prop := {
  wf_files : files <> [];
  wf_nonneg : Forall (fun f => 0 <= flen f) files;
  wf_pl : 0 < PL;
  wf_n : (0 < n)%nat;
  wf_lo : PL * (Z.of_nat n - 1) < L;
  wf_hi : L <= PL * Z.of_nat n;
  wf_sum : L = sum_flen files
}.

Lemma sum_flen_cons f r : sum_flen (f :: r) = flen f + sum_flen r.
Proof. reflexivity. Qed.

Lemma prefix_sum_nil k : prefix_sum [] k = 0.
Proof. destruct k; reflexivity. Qed.

Lemma prefix_sum_0 fs : prefix_sum fs 0 = 0.
Proof. destruct fs; reflexivity. Qed.

Lemma prefix_sum_S fs : forall k f, nth_error fs k = Some f ->
  prefix_sum fs (S k) = prefix_sum fs k + flen f.
Proof.
  induction fs as [|g r IH]; intros k f H; [destruct k; discriminate|].
  destruct k as [|k]; cbn [nth_error] in H.
  - inversion H; subst. cbn [prefix_sum]. rewrite prefix_sum_0. lia.
  - change (prefix_sum (g :: r) (S (S k))) with (flen g + prefix_sum r (S k)).
    rewrite (IH k f H). cbn [prefix_sum]. lia.
Qed.

Lemma prefix_sum_all fs : forall k, (length fs <= k)%nat -> prefix_sum fs k = sum_flen fs.
Proof.
  induction fs as [|g r IH]; intros k H; [apply prefix_sum_nil|].
  destruct k as [|k]; cbn [length] in H; [lia|]. cbn [prefix_sum]. rewrite sum_flen_cons, IH; lia.
Qed.

Lemma prefix_sum_le fs : Forall (fun f => 0 <= flen f) fs ->
  forall k, 0 <= prefix_sum fs k <= sum_flen fs.
Proof.
  induction 1 as [|g r Hg Hr IH]; intros k; [rewrite prefix_sum_nil; cbn; lia|].
  rewrite sum_flen_cons. destruct k as [|k]; cbn [prefix_sum].
  - specialize (IH O). lia.
  - specialize (IH k). lia.
Qed.

Lemma sum_slen_cons s r : sum_slen (s :: r) = slen s + sum_slen r.
Proof. reflexivity. Qed.

Lemma sum_slen_app x y : sum_slen (x ++ y) = sum_slen x + sum_slen y.
Proof. induction x as [|s r IH]; [reflexivity|]. cbn [app]. rewrite !sum_slen_cons. lia. Qed.

Lemma sum_slen_nonneg ss : Forall (fun s => 0 <= slen s) ss -> 0 <= sum_slen ss.
Proof. induction 1 as [|s r Hs Hr IH]; [reflexivity|]. rewrite sum_slen_cons. lia. Qed.

(* What [chain_ok] checks of one section, apart from where it starts: it lies inside its own file
   and carries that file's padding flag. *)
Definition sec_in (fs : list file) (s : section) : Prop :=
  exists f, nth_error fs (sfile s) = Some f /\ 0 <= soff s /\ 0 <= slen s /\
            soff s + slen s <= flen f /\ spad s = fpad f.

Definition abs_start (fs : list file) (s : section) : Z := prefix_sum fs (sfile s) + soff s.

Lemma sec_ok_iff fs a s : sec_ok fs a s = true <-> sec_in fs s /\ abs_start fs s = a.
Proof.
  unfold sec_ok, sec_in, abs_start. destruct (nth_error fs (sfile s)) as [f|].
  - split.
    + intros H. split; [exists f; repeat split|]; lia.
    + intros ((g & Hg & H) & Ha). inversion Hg; subst g. lia.
  - split; [discriminate|]. intros ((g & Hg & _) & _). discriminate.
Qed.

Lemma sec_in_nonneg fs ss : Forall (sec_in fs) ss -> Forall (fun s => 0 <= slen s) ss.
Proof. apply Forall_impl. intros s (f & _ & _ & H & _). exact H. Qed.

Lemma chain_ok_app fs : forall x y a,
  chain_ok fs a (x ++ y) = match chain_ok fs a x with Some m => chain_ok fs m y | None => None end.
Proof.
  induction x as [|s r IH]; intros y a; cbn [app chain_ok]; [reflexivity|].
  destruct (sec_ok fs a s); [apply IH|reflexivity].
Qed.

Lemma chain_ok_app_inv fs x y a c : chain_ok fs a (x ++ y) = Some c ->
  exists m, chain_ok fs a x = Some m /\ chain_ok fs m y = Some c.
Proof. rewrite chain_ok_app. destruct (chain_ok fs a x) as [m|]; [eauto|discriminate]. Qed.

Lemma chain_ok_cons fs a s r b : chain_ok fs a (s :: r) = Some b ->
  sec_in fs s /\ abs_start fs s = a /\ chain_ok fs (a + slen s) r = Some b.
Proof.
  cbn [chain_ok]. destruct (sec_ok fs a s) eqn:E; [|discriminate].
  apply sec_ok_iff in E as [Hs Ha]. auto.
Qed.

Lemma chain_ok_inv fs : forall ss a b, chain_ok fs a ss = Some b ->
  b = a + sum_slen ss /\ Forall (sec_in fs) ss.
Proof.
  induction ss as [|s r IH]; intros a b H.
  - inversion H. split; [cbn; lia|constructor].
  - apply chain_ok_cons in H as (Hs & _ & H). apply IH in H as [-> Hr].
    rewrite sum_slen_cons. split; [lia|constructor; assumption].
Qed.

(* Each section starts exactly where the ones before it end: with [chain_ok_inv] this puts every
   byte of [a, b) in one section and no byte in two. *)
Lemma chain_ok_at fs pre s post a b : chain_ok fs a (pre ++ s :: post) = Some b ->
  abs_start fs s = a + sum_slen pre.
Proof.
  intros H. apply chain_ok_app_inv in H as (m & E & H).
  apply chain_ok_inv in E as [-> _]. apply chain_ok_cons in H as (_ & H & _). exact H.
Qed.

Lemma chain_ok_cover fs : forall ss a b, chain_ok fs a ss = Some b ->
  a <= b /\ forall x, a <= x < b -> exists s, In s ss /\ abs_start fs s <= x < abs_start fs s + slen s.
Proof.
  induction ss as [|s r IH]; intros a b H.
  - inversion H; subst. split; [lia|]. intros x Hx; lia.
  - apply chain_ok_cons in H as ((f & _ & _ & Hl & _) & Ha & H).
    destruct (IH _ _ H) as [Hle Hcov].
    split; [lia|]. intros x Hx. destruct (Z_lt_le_dec x (a + slen s)) as [Hlt|Hge].
    + exists s. split; [left; reflexivity|lia].
    + destruct (Hcov x) as (s' & Hin & Hr); [lia|]. exists s'. split; [right; assumption|assumption].
Qed.

Lemma chain_ok_inside fs ss a b : chain_ok fs a ss = Some b ->
  forall s, In s ss -> a <= abs_start fs s /\ abs_start fs s + slen s <= b.
Proof.
  intros H s Hin. apply in_split in Hin as (pre & post & ->).
  rewrite (chain_ok_at _ _ _ _ _ _ H). apply chain_ok_inv in H as [-> Hall].
  apply sec_in_nonneg, Forall_app in Hall as [Hpre Hpost]. inversion Hpost; subst.
  rewrite sum_slen_app, sum_slen_cons.
  pose proof (sum_slen_nonneg pre Hpre). pose proof (sum_slen_nonneg post ltac:(assumption)). lia.
Qed.

Lemma piece_lens_ok_Forall PL L n : forall ps i, piece_lens_ok PL L i n ps = true ->
  Forall (fun p => plength p = sum_slen (psecs p) /\
                   (plength p = PL \/ plength p = L - PL * (n - 1))) ps.
Proof.
  induction ps as [|p r IH]; intros i H; [constructor|]. cbn [piece_lens_ok] in H.
  apply andb_prop in H as [H Hr]. constructor; [|exact (IH _ Hr)].
  destruct (i =? n - 1); lia.
Qed.

Section WF.
Variable files : list file.
Variable PL : Z.
Variable n : nat.
Variable L : Z.
Hypothesis WF : wf_info files PL n L.

Record CurInv (s : fcur) : Prop := {
  ci_file : exists f, nth_error files (fidx s) = Some f /\ flength s = flen f /\ fpadc s = fpad f;
  ci_off : 0 <= foff s <= flength s;
  ci_tot : prefix_sum files (fidx s) + foff s = total s
}.

Lemma cur_total_le s : CurInv s -> total s + (flength s - foff s) <= L.
Proof.
  intros [(f & Hn & Hl & _) Ho Ht]. destruct WF as [_ Hnn _ _ _ _ ->].
  pose proof (prefix_sum_S files _ _ Hn). pose proof (prefix_sum_le files Hnn (S (fidx s))). lia.
Qed.

Lemma next_file_ok s : CurInv s -> foff s = flength s -> total s < L ->
  exists s2, next_file files s = Ok s2 /\ CurInv s2 /\ total s2 = total s /\ fidx s2 = S (fidx s).
Proof.
  intros [(f & Hn & Hl & Hp) Ho Ht] Hend Hlt. destruct WF as [_ Hnn _ _ _ _ HL]. unfold next_file.
  pose proof (prefix_sum_S files _ _ Hn) as HS.
  destruct (nth_error files (S (fidx s))) as [g|] eqn:E.
  - pose proof (proj1 (Forall_forall _ _) Hnn g (nth_error_In _ _ E)) as Hg. cbn beta in Hg.
    eexists. split; [reflexivity|]. split; [|split; reflexivity].
    constructor; cbn [fidx flength foff fpadc total]; [exists g; auto|lia|lia].
  - apply nth_error_None in E. rewrite (prefix_sum_all files _ E) in HS. lia.
Qed.

Lemma sec_ok_cur s m : CurInv s -> 0 <= m <= flength s - foff s ->
  sec_ok files (total s) {| sfile := fidx s; soff := foff s; slen := m; spad := fpadc s |} = true.
Proof.
  intros [(f & Hn & Hl & Hp) Ho Ht] Hm. apply sec_ok_iff. split; [|exact Ht].
  exists f. cbn [sfile soff slen spad]. repeat split; auto; lia.
Qed.

Lemma inner_done fuel s left secs plen : left <= 0 ->
  inner files L (S fuel) s left secs plen = Ok (secs, plen, s).
Proof. intros H. cbn [inner]. destruct (left >? 0) eqn:E; [lia|reflexivity]. Qed.

(* What the inner loop does for one piece: from cursor [s] the sections [secs] chain to cursor
   [s'], stop after [left] bytes or at the end of the torrent, and lie in distinct files from
   the cursor's on (a section ends its file or the piece). *)
Definition took (s : fcur) (left : Z) (secs : list section) (s' : fcur) : Prop :=
  CurInv s' /\ chain_ok files (total s) secs = Some (total s') /\
  (total s' - total s = left \/ (total s' = L /\ total s' - total s <= left)) /\
  NoDup (map sfile secs) /\ Forall (fun x => (fidx s <= sfile x)%nat) secs.

Lemma took_nil s left : CurInv s -> left = 0 \/ (total s = L /\ 0 <= left) -> took s left [] s.
Proof. intros HI H. split; [exact HI|]. split; [reflexivity|]. split; [lia|]. split; constructor. Qed.

(* a section of [m] bytes at the cursor, then sections of later files from a cursor [m] bytes on *)
Lemma took_cons s m left s2 secs s' : CurInv s -> 0 <= m <= flength s - foff s ->
  total s2 = total s + m -> took s2 (left - m) secs s' -> Forall (fun x => (fidx s < sfile x)%nat) secs ->
  took s left ({| sfile := fidx s; soff := foff s; slen := m; spad := fpadc s |} :: secs) s'.
Proof.
  intros HI Hm Ht (HI' & Hc & Hd & Hnd & _) Hlt. split; [exact HI'|]. rewrite Ht in Hc, Hd.
  split; [|split; [lia|split]].
  - cbn [chain_ok]. rewrite (sec_ok_cur s m HI Hm). exact Hc.
  - cbn [map sfile]. constructor; [|exact Hnd]. rewrite in_map_iff. intros (x & Hx & Hin).
    rewrite Forall_forall in Hlt. specialize (Hlt x Hin). lia.
  - constructor; [cbn; lia|]. revert Hlt. apply Forall_impl. intros x. apply Nat.lt_le_incl.
Qed.

Lemma inner_ok : forall fuel s left secs plen,
  CurInv s -> 0 <= left -> (fuel >= length files - fidx s + 1)%nat ->
  exists secs2 s',
    inner files L fuel s left secs plen = Ok (secs ++ secs2, plen + sum_slen secs2, s') /\
    took s left secs2 s'.
Proof.
  induction fuel as [|f IH]; intros s left secs plen HI Hl Hf; [lia|].
  cbn [inner]. destruct (left >? 0) eqn:El.
  2:{ exists [], s. rewrite app_nil_r. change (sum_slen []) with 0. rewrite Z.add_0_r.
      split; [reflexivity|]. apply took_nil; [exact HI|lia]. }
  set (m := Z.min left (flength s - foff s)).
  pose proof (ci_off s HI) as Ho.
  assert (Hm : 0 <= m <= flength s - foff s) by lia.
  set (sec := {| sfile := fidx s; soff := foff s; slen := m; spad := fpadc s |}).
  set (s1 := {| fidx := fidx s; flength := flength s; foff := foff s + m; fpadc := fpadc s;
                total := total s + m |}).
  assert (HI1 : CurInv s1).
  { destruct HI as [Hfile Ho' Ht]. constructor; cbn [fidx flength foff fpadc total s1]; auto; lia. }
  pose proof (cur_total_le s HI) as Hle.
  assert (Hfidx : (fidx s < length files)%nat).
  { destruct (ci_file s HI) as (g & Hn & _). apply nth_error_Some. congruence. }
  (* the piece ends with [sec], at the end of the torrent or because it is full *)
  assert (Stop : total s1 = L \/ m = left -> exists secs2 s',
            Ok (secs ++ [sec], plen + m, s1) = Ok (secs ++ secs2, plen + sum_slen secs2, s') /\
            took s left secs2 s').
  { intros H. exists [sec], s1. rewrite sum_slen_cons. change (sum_slen []) with 0. rewrite Z.add_0_r.
    split; [reflexivity|]. apply (took_cons s m left s1); [exact HI|exact Hm|reflexivity| |constructor].
    apply took_nil; [exact HI1|lia]. }
  cbn [total flength foff s1]. destruct (total s + m =? L) eqn:EL; [apply Stop; cbn [total s1]; lia|].
  destruct (flength s - (foff s + m) =? 0) eqn:EF.
  - destruct (next_file_ok s1 HI1) as (s2 & E2 & HI2 & Ht2 & Hf2); cbn [foff flength total s1]; try lia.
    rewrite E2. cbn [total s1] in Ht2. cbn [fidx s1] in Hf2.
    destruct (IH s2 (left - m) (secs ++ [sec]) (plen + m) HI2) as (secs2 & s' & E & T); [lia|lia|].
    exists (sec :: secs2), s'. rewrite E, <- app_assoc, sum_slen_cons, Z.add_assoc.
    split; [reflexivity|]. apply (took_cons s m left s2); [exact HI|exact Hm|exact Ht2|exact T|].
    destruct T as (_ & _ & _ & _ & Hge). rewrite Hf2 in Hge. exact Hge.
  - destruct f as [|f']; [lia|]. rewrite inner_done by lia. apply Stop. lia.
Qed.

Lemma outer_ok : forall k i s, Z.of_nat k + i = Z.of_nat n ->
  CurInv s -> total s = Z.min (i * PL) L ->
  exists ps, outer files PL L k s = Ok ps /\ length ps = k /\
    chain_ok files (total s) (flat_map psecs ps) = Some L /\
    piece_lens_ok PL L i (Z.of_nat n) ps = true /\
    Forall (fun p => NoDup (map sfile (psecs p))) ps.
Proof.
  destruct WF as [_ _ Hpl _ Hlo Hhi _].
  induction k as [|k IH]; intros i s Hk HI Ht.
  - exists []. assert (i = Z.of_nat n) by lia. subst i. cbn. repeat split; auto. f_equal. lia.
  - cbn [outer].
    destruct (inner_ok (inner_fuel files) s PL [] 0 HI) as (secs2 & s' & E & HI' & Hc & Hd & Hnd & _);
      [lia|unfold inner_fuel; lia|].
    rewrite E. cbn [app]. pose proof (chain_ok_inv _ _ _ _ Hc) as [Hs _].
    pose proof (cur_total_le s' HI'). pose proof (ci_off s' HI').
    assert (Ht' : total s' = Z.min ((i + 1) * PL) L) by lia.
    destruct (IH (i + 1) s') as (ps & Eo & Hlen & Hch & Hpl' & Hnds); [lia|assumption|assumption|].
    rewrite Eo. eexists. split; [reflexivity|]. split; [cbn [length]; lia|]. split; [|split].
    + cbn [flat_map psecs]. rewrite chain_ok_app, Hc. exact Hch.
    + cbn [piece_lens_ok plength psecs]. rewrite Hpl', Z.add_0_l.
      destruct (Z.eqb_spec i (Z.of_nat n - 1)) as [->|Ei].
      * lia.
      * pose proof (Z.mul_le_mono_nonneg_r (i + 1) (Z.of_nat n - 1) PL ltac:(lia) ltac:(lia)). lia.
    + constructor; assumption.
Qed.

(* NewPieces on a well-formed info: it returns [n] pieces whose sections chain through the files
   from byte 0 to byte L, with lengths PL except a shorter last one, and no piece has two
   sections in one file. *)
Theorem new_pieces_ok :
  exists ps, new_pieces files PL L n = Ok ps /\ length ps = n /\
    chain_ok files 0 (flat_map psecs ps) = Some L /\
    piece_lens_ok PL L 0 (Z.of_nat n) ps = true /\
    Forall (fun p => NoDup (map sfile (psecs p))) ps.
Proof.
  destruct WF as [Hne Hnn Hpl Hn Hlo _ _]. unfold new_pieces, first_file.
  destruct files as [|f fs] eqn:Ef; [congruence|]. rewrite <- Ef in *.
  replace (nth_error files 0) with (Some f) by (rewrite Ef; reflexivity).
  set (s0 := {| fidx := 0; flength := flen f; foff := 0; fpadc := fpad f; total := 0 |}).
  assert (HI : CurInv s0).
  { constructor; cbn [fidx flength foff fpadc total s0].
    - exists f. rewrite Ef. auto.
    - rewrite Ef in Hnn. inversion Hnn. lia.
    - rewrite prefix_sum_0. reflexivity. }
  apply (outer_ok n 0 s0); [lia|exact HI|].
  cbn [total s0]. pose proof (Z.mul_nonneg_nonneg PL (Z.of_nat n - 1)). lia.
Qed.
End WF.

Example wf_example : wf_info [{| flen := 5; fpad := false |}; {| flen := 0; fpad := false |};
                              {| flen := 3; fpad := true |}; {| flen := 4; fpad := false |}] 4 3 12.
Proof. constructor; cbn; try lia; [discriminate|]. repeat constructor; cbn; lia. Qed.
