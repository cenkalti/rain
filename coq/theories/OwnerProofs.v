(* C20: two accesses of a field made under its lock by different threads are ordered by a release and a later
   acquire of that lock; what the ownership rule and the lock-order check demand. *)
From RainV Require Import Lib Owner.

Lemma upd_same s l v : upd s l v l = v.
Proof. unfold upd. rewrite Z.eqb_refl. reflexivity. Qed.
Lemma upd_other s l v x : x <> l -> upd s l v x = s x.
Proof. intro H. unfold upd. destruct (Z.eqb_spec x l); [contradiction|reflexivity]. Qed.

Lemma wf_app : forall tr1 tr2 s, wf s (tr1 ++ tr2) -> wf s tr1 /\ wf (run s tr1) tr2.
Proof.
  induction tr1 as [|e r IH]; intros tr2 s H; cbn in *; [auto|]. destruct H as [Hok H]. destruct (IH _ _ H) as [A B]. auto.
Qed.

(* only its acquisition by [t] makes [t] the holder of a lock *)
Lemma step_holder s e l t : step s e l = Some t -> s l = Some t \/ e = Acq t l.
Proof.
  destruct e as [t' l'|t' l'|]; cbn; auto; destruct (Z.eq_dec l l') as [<-|Hl]; rewrite ?upd_same, ?upd_other by exact Hl; auto.
  (* an event on another lock, or an access, leaves the holder of [l] as it was *)
  - (* Acq t' l *) intros [= ->]. auto.
  - (* Rel t' l *) discriminate.
Qed.

(* and only its release by the holder ends the holding *)
Lemma step_keeps s e l t : step_ok s e -> s l = Some t -> step s e l = Some t \/ e = Rel t l.
Proof.
  destruct e as [t' l'|t' l'|]; cbn; auto; destruct (Z.eq_dec l l') as [<-|Hl]; rewrite ?upd_other by exact Hl; auto.
  - (* Acq t' l is not enabled: [l] is held *) congruence.
  - (* Rel t' l is enabled for the holder only *) right. congruence.
Qed.

(* a thread that does not hold the lock and later does has acquired it in between *)
Lemma acquired_between l t s tr : s l <> Some t -> run s tr l = Some t -> exists b c, tr = b ++ Acq t l :: c.
Proof.
  intro Hn. induction tr as [|e r IH] using rev_ind; intro Hr; [contradiction|].
  unfold run in Hr. rewrite fold_left_app in Hr. destruct (step_holder _ _ _ _ Hr) as [H| ->].
  - destruct (IH H) as (b & c & ->). exists b, (c ++ [e]). rewrite <- app_assoc. reflexivity.
  - exists r, []. reflexivity.
Qed.

(* mutual exclusion turned into ordering: if one thread holds the lock and later another one does, the first
   has released it and the second has acquired it afterwards, in that order *)
Lemma release_then_acquire l t1 t2 : t1 <> t2 -> forall tr s, wf s tr -> s l = Some t1 -> run s tr l = Some t2 ->
  exists a b c, tr = a ++ Rel t1 l :: b ++ Acq t2 l :: c.
Proof.
  intro Hne. induction tr as [|e r IH]; intros s Hw Hs Hr; [cbn in Hr; congruence|]. destruct Hw as [Hok Hw].
  destruct (step_keeps s e l t1 Hok Hs) as [H| ->].
  - destruct (IH _ Hw H Hr) as (a & b & c & ->). exists (e :: a), b, c. reflexivity.
  - destruct (acquired_between l t2 (upd s l None) r) as (b & c & ->); [rewrite upd_same; discriminate|exact Hr|].
    exists [], b, c. reflexivity.
Qed.

(* two accesses of a field by different threads that both hold the field's lock are ordered by the lock:
   between them the first thread releases it and the second acquires it (program order, then the
   unlock-before-lock edge of the Go memory model, then program order) *)
Theorem guarded_accesses_are_ordered l f t1 t2 w1 w2 pre mid post s0 :
  t1 <> t2 ->
  wf s0 (pre ++ Acc t1 f w1 :: mid ++ Acc t2 f w2 :: post) ->
  run s0 pre l = Some t1 ->                          (* the first access is made holding l *)
  run s0 (pre ++ Acc t1 f w1 :: mid) l = Some t2 ->  (* and so is the second *)
  exists a b c, mid = a ++ Rel t1 l :: b ++ Acq t2 l :: c.
Proof.
  intros Hne Hw H1 H2.
  destruct (wf_app _ _ _ Hw) as [_ [_ Hw1]].
  destruct (wf_app mid (Acc t2 f w2 :: post) _ Hw1) as [Hwm _].
  unfold run in H2. rewrite fold_left_app in H2. cbn [fold_left step] in H2.
  exact (release_then_acquire l t1 t2 Hne mid _ Hwm H1 H2).
Qed.

(* the rule, read back: an entry that passes for a field that is written after construction and is not on
   the justified list holds the field's lock *)
Lemma access_ok_holds_lock field func locks flock :
  access_ok field func locks flock true = true -> is_justified field func = false -> Z.land locks flock <> 0.
Proof.
  unfold access_ok. intros H J. rewrite J in H. cbn in H. rewrite orb_false_r in H.
  apply negb_true_iff, Z.eqb_neq in H. exact H.
Qed.

(* a field that only the loop touches is touched by one thread: nothing to order *)
Lemma confined_same_thread (loop : Z) (t1 t2 : Z) : t1 = loop -> t2 = loop -> t1 = t2.
Proof. congruence. Qed.

Lemma acyclic_no_self_loop es a : acyclic es = true -> In (a, a) es -> False.
Proof.
  unfold acyclic. intros H Hin. rewrite forallb_forall in H. specialize (H _ Hin). cbn in H.
  rewrite Z.eqb_refl in H. rewrite andb_false_r in H. discriminate.
Qed.

Example rule_examples :
  (access_ok 1 2 16 16 true, access_ok 1 2 0 16 true, access_ok 1 2 0 0 false, access_ok 1115858697 2057374617 16 0 true,
   acyclic [(3, 4); (2, 0); (3, 0); (3, 2)], acyclic [(3, 4); (4, 3)], acyclic [(1, 2); (2, 3); (3, 1)])
  = (true, false, true, true, true, false, false).
Proof. vm_compute. reflexivity. Qed.
