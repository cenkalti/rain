(* piecedownloader: whatever blocks a peer sends, the piece buffer only ever receives data at the
   exact block positions calculateBlocks produced, each at most once; when all blocks are there the
   buffer is the accepted blocks at their places and zeros elsewhere (padding).  Piece writer:
   storage is touched only by a buffer whose hash matches.  Verifier (kind 103): a set bit means the
   piece was read in full and equals the content.  C17: the requests in flight stay within the queue
   length. *)
From RainV Require Import Lib Geometry SectionIO BlocksProofs PieceDl.

Lemma put_len buf begin data : 0 <= begin -> begin + zlen data <= zlen buf -> zlen (put buf begin data) = zlen buf.
Proof. intros Hb Hl. unfold put, zlen in *. rewrite !app_length, firstn_length, skipn_length. lia. Qed.

Lemma put_slice_same buf begin data : 0 <= begin -> begin + zlen data <= zlen buf ->
  slice (put buf begin data) begin (zlen data) = data.
Proof.
  intros Hb Hl. unfold slice, put, zlen in *.
  rewrite skipn_app_exact by (rewrite firstn_length; lia). apply firstn_app_exact. lia.
Qed.

Lemma nth_put_other buf begin data k : 0 <= begin -> begin + zlen data <= zlen buf ->
  (k < Z.to_nat begin \/ Z.to_nat begin + length data <= k)%nat -> nth k (put buf begin data) 0 = nth k buf 0.
Proof.
  intros Hb Hl Hk. unfold put, zlen in *.
  assert (Hf : length (firstn (Z.to_nat begin) buf) = Z.to_nat begin) by (rewrite firstn_length; lia).
  destruct Hk as [Hk|Hk].
  - rewrite app_nth1 by lia. rewrite nth_firstn'. destruct (Nat.ltb_spec k (Z.to_nat begin)); [reflexivity|lia].
  - rewrite app_nth2 by lia. rewrite app_nth2 by lia. rewrite Hf.
    rewrite nth_skipn'. f_equal. lia.
Qed.

Lemma nth_slice l off len j :
  nth j (slice l off len) 0 = if (j <? Z.to_nat len)%nat then nth (Z.to_nat off + j) l 0 else 0.
Proof. unfold slice. rewrite nth_firstn', nth_skipn'. reflexivity. Qed.

Lemma slice_put_other buf begin data b n : 0 <= begin -> begin + zlen data <= zlen buf -> 0 <= b ->
  (b + n <= begin \/ begin + zlen data <= b) -> slice (put buf begin data) b n = slice buf b n.
Proof.
  intros Hb Hl Hb0 Hd. apply nth_ext with (d := 0) (d' := 0).
  - unfold slice. rewrite !firstn_length, !skipn_length. pose proof (put_len buf begin data Hb Hl) as Hp. unfold zlen in Hp. lia.
  - intros k _. rewrite !nth_slice. destruct (Nat.ltb_spec k (Z.to_nat n)); [|reflexivity].
    apply nth_put_other; auto. unfold zlen in *. lia.
Qed.

Lemma block_len_in begin : forall l len, block_len begin l = Some len -> exists b, In b l /\ bbeg b = begin /\ blen b = len.
Proof.
  induction l as [|b r IH]; intros len H; cbn [block_len] in H; [discriminate|].
  destruct (Z.eqb_spec (bbeg b) begin) as [E|_].
  - inversion H; subst len. exists b. split; [left; reflexivity|auto].
  - destruct (IH _ H) as (b' & Hin & Hb). exists b'. split; [right; exact Hin|exact Hb].
Qed.

(* [hist] is a ghost list of the accepted blocks (begin, data), in order of arrival *)
Record DInv (plen : Z) (d : pdl) (hist : list (Z * list Z)) : Prop := {
  di_len : zlen (pd_buf d) = plen;
  di_done : map fst hist = pd_done d;
  di_nodup : NoDup (pd_done d);
  di_sub : incl (pd_done d) (map bbeg (pd_blocks d));
  di_hist : forall b data, In (b, data) hist ->
              (exists blk, In blk (pd_blocks d) /\ bbeg blk = b /\ blen blk = zlen data) /\ slice (pd_buf d) b (zlen data) = data;
  di_zero : forall k, (k < Z.to_nat plen)%nat ->
              (forall b data, In (b, data) hist -> ~ (b <= Z.of_nat k < b + zlen data)) -> nth k (pd_buf d) 0 = 0
}.

Lemma new_dinv blocks plen af fast : 0 <= plen -> DInv plen (pdl_new blocks plen af fast) [].
Proof.
  intros Hp. constructor; cbn [pdl_new pd_buf pd_done].
  - unfold zlen. rewrite repeat_length. lia.
  - reflexivity.
  - constructor.
  - intros x [].
  - intros b data [].
  - intros k Hk _. apply nth_repeat.
Qed.

Lemma zmem_true x l : zmem x l = true <-> In x l.
Proof.
  unfold zmem. rewrite existsb_exists. split.
  - intros (y & Hy & E). apply Z.eqb_eq in E. subst y. exact Hy.
  - intros H. exists x. split; [exact H|apply Z.eqb_refl].
Qed.

(* the bookkeeping of received blocks, with or without the buffer *)
Definition DoneInv (d : pdl) : Prop := NoDup (pd_done d) /\ incl (pd_done d) (map bbeg (pd_blocks d)).

(* a block that passes the checks of GotBlock is one of the piece's blocks and is new *)
Lemma accept_ok d b n : DoneInv d -> find_block d b n = true -> zmem b (pd_done d) = false ->
  (exists blk, In blk (pd_blocks d) /\ bbeg blk = b /\ blen blk = n) /\ ~ In b (pd_done d) /\
  NoDup (pd_done d ++ [b]) /\ incl (pd_done d ++ [b]) (map bbeg (pd_blocks d)).
Proof.
  intros [Hn Hs] Ef Ed. unfold find_block in Ef. destruct (block_len b (pd_blocks d)) as [len|] eqn:Eb; [|discriminate].
  destruct (block_len_in _ _ _ Eb) as (blk & Hin & Hb & Hl).
  assert (Hnd : ~ In b (pd_done d)) by (intros Hc; apply zmem_true in Hc; congruence).
  split; [exists blk; split; [exact Hin|split; [exact Hb|lia]]|]. split; [exact Hnd|]. split; [apply NoDup_app_one; assumption|].
  intros x Hx. apply in_app_or in Hx as [Hx|[<-|[]]]; [apply Hs; exact Hx|]. rewrite <- Hb. apply in_map. exact Hin.
Qed.

Lemma finished_all d : DoneInv d -> pd_finished d = true -> incl (map bbeg (pd_blocks d)) (pd_done d).
Proof.
  intros [Hn Hs] Hfin. apply Nat.eqb_eq in Hfin. apply NoDup_length_incl; [exact Hn|rewrite map_length; lia|exact Hs].
Qed.

Theorem got_blk_inv plen d hist begin data : ordered 0 (pd_blocks d) plen -> DInv plen d hist ->
  let '(d', g) := got_blk d begin data in
  match g with
  | GInvalid | GDuplicate => d' = d
  | GOk | GNotRequested =>
      DInv plen d' (hist ++ [(begin, data)]) /\ pd_blocks d' = pd_blocks d /\
      (exists blk, In blk (pd_blocks d) /\ bbeg blk = begin /\ blen blk = zlen data) /\ ~ In begin (pd_done d)
  end.
Proof.
  intros Ho [Hl Hd Hnodup Hsub Hh Hz]. unfold got_blk.
  destruct (find_block d begin (zlen data)) eqn:Ef; cbn [negb]; [|reflexivity].
  destruct (zmem begin (pd_done d)) eqn:Ed; [reflexivity|].
  destruct (accept_ok d begin _ (conj Hnodup Hsub) Ef Ed) as ((blk & Hin & Hbb & Hbl) & Hnd & Hn' & Hs').
  destruct (ordered_in _ _ _ _ Ho Hin) as (Hlo & Hpos & Hhi).
  assert (Hrange : 0 <= begin /\ begin + zlen data <= zlen (pd_buf d)) by lia.
  assert (G : DInv plen {| pd_blocks := pd_blocks d; pd_remaining := pd_remaining d; pd_pending := zrem begin (pd_pending d);
                            pd_done := pd_done d ++ [begin]; pd_buf := put (pd_buf d) begin data; pd_af := pd_af d; pd_fast := pd_fast d |}
                     (hist ++ [(begin, data)])).
  { constructor; cbn [pd_buf pd_done pd_blocks]; [rewrite put_len; lia|rewrite map_app, Hd; reflexivity|exact Hn'|exact Hs'| |].
    - intros b dt Hi. apply in_app_or in Hi as [Hi|[Hi|[]]].
      + destruct (Hh _ _ Hi) as ((blk' & Hin' & Hb' & Hl') & Hs). split; [eauto|].
        (* an earlier block is another block of the piece: the new data does not reach it *)
        destruct (ordered_in _ _ _ _ Ho Hin') as (Q1 & Q2 & Q3). pose proof (zlen_nonneg dt) as Hdn.
        destruct (ordered_pair _ _ _ _ _ Ho Hin' Hin) as [->|Hdis].
        * exfalso. apply Hnd. rewrite <- Hd. apply in_map_iff. exists (b, dt). split; [cbn; lia|exact Hi].
        * rewrite slice_put_other by lia. exact Hs.
      + inversion Hi; subst b dt. split; [exists blk; auto|]. apply put_slice_same; lia.
    - intros k Hk Hnone. rewrite nth_put_other; try lia.
      + apply Hz; [exact Hk|]. intros b dt Hi. apply Hnone. apply in_or_app. left; exact Hi.
      + assert (Hlast : In (begin, data) (hist ++ [(begin, data)])) by (apply in_or_app; right; left; reflexivity).
        specialize (Hnone begin data Hlast). unfold zlen in *. lia. }
  destruct (zmem begin (pd_pending d)); (split; [exact G|split; [reflexivity|split; [exists blk; auto|exact Hnd]]]).
Qed.

(* when every block has arrived and each accepted block carried the true bytes of its range, the
   assembled buffer IS the piece (padding ranges, which no block covers, are the zeros the buffer
   was created with) *)
Theorem assembled_is_truth plen d hist truth :
  ordered 0 (pd_blocks d) plen -> DInv plen d hist -> pd_finished d = true -> zlen truth = plen ->
  (forall k, 0 <= k < plen -> ~ covered (pd_blocks d) k -> nth (Z.to_nat k) truth 0 = 0) ->
  (forall b data, In (b, data) hist -> data = slice truth b (zlen data)) ->
  pd_buf d = truth.
Proof.
  intros Ho [Hl Hd Hnodup Hsub Hh Hz] Hfin Ht Hpad Hgood.
  pose proof (finished_all d (conj Hnodup Hsub) Hfin) as Hall.
  apply nth_ext with (d := 0) (d' := 0); [unfold zlen in *; lia|].
  intros k Hk.
  assert (Hkp : (k < Z.to_nat plen)%nat) by (unfold zlen in *; lia).
  destruct (covered_dec (pd_blocks d) (Z.of_nat k)) as [(blk & Hin & Hr)|Hnc].
  - assert (Hd1 : In (bbeg blk) (pd_done d)) by (apply Hall, in_map, Hin).
    rewrite <- Hd in Hd1. apply in_map_iff in Hd1 as ((b, data) & Eb & Hi). cbn in Eb. subst b.
    destruct (Hh _ _ Hi) as ((blk' & Hin' & Hb' & Hl') & Hs).
    apply (NoDup_map_inj bbeg _ _ _ (ordered_begins_nodup _ _ _ Ho) Hin' Hin) in Hb' as ->.
    pose proof (Hgood _ _ Hi) as Hg. rewrite Hg in Hs at 2.
    (* nth k of both equals nth (k - b) of the slices *)
    assert (Hsl : forall l, nth k l 0 = nth (k - Z.to_nat (bbeg blk)) (slice l (bbeg blk) (zlen data)) 0).
    { intros l. rewrite nth_slice. destruct (Nat.ltb_spec (k - Z.to_nat (bbeg blk)) (Z.to_nat (zlen data))); [f_equal|]; lia. }
    rewrite (Hsl (pd_buf d)), (Hsl truth), Hs. reflexivity.
  - rewrite Hz; [|exact Hkp|].
    + symmetry. rewrite <- (Nat2Z.id k). apply Hpad; [lia|exact Hnc].
    + intros b data Hi Hr. destruct (Hh _ _ Hi) as ((blk & Hin & Hb & Hlen) & _).
      apply Hnc. exists blk. split; [exact Hin|lia].
Qed.

(* the piece writer: hash check first, then the write of C02 *)
Section Writer.
Variable hash : list Z -> Z.
Definition write_piece (H : Z) (plen : Z) (st : storage) (secs : list section) (buf : list Z) : res storage * bool :=
  if (zlen buf =? plen) && (hash buf =? H) then (write_secs st secs buf, true) else (Ok st, false).

(* storage is modified only by a buffer of the piece's length whose hash equals the recorded one *)
Theorem written_is_verified H plen st secs buf r : write_piece H plen st secs buf = (r, true) ->
  zlen buf = plen /\ hash buf = H /\ r = write_secs st secs buf.
Proof.
  unfold write_piece. destruct ((zlen buf =? plen) && (hash buf =? H)) eqn:E; intros Hr; inversion Hr; subst. repeat split; lia.
Qed.

Theorem hash_mismatch_writes_nothing H plen st secs buf r : write_piece H plen st secs buf = (r, false) -> r = Ok st.
Proof. unfold write_piece. destruct ((zlen buf =? plen) && (hash buf =? H)); intros Hr; inversion Hr; reflexivity. Qed.
End Writer.

(* the verifier: a bit in its result means that every byte of the piece was read and equals the content *)
Lemma verifier_marks_only_good_pieces np r bits : run_verifier (np :: r) = 0 :: bits ->
  forall i, nth i bits 0 = 1 ->
  exists s e, nth_error (firstn (Z.to_nat np) (ver_pairs r)) i = Some (s, e) /\ s = false /\ e = true.
Proof.
  unfold run_verifier. set (ps := firstn (Z.to_nat np) (ver_pairs r)).
  destruct (existsb fst ps) eqn:E; [discriminate|]. intros H i Hi. injection H as <-.
  assert (G : forall (l : list (bool * bool)) i, existsb fst l = false -> nth i (map (fun p => b2z (snd p)) l) 0 = 1 ->
              exists s e, nth_error l i = Some (s, e) /\ s = false /\ e = true).
  { induction l as [|[s e] l IH]; intros [|k] Hf Hn; cbn in *; try discriminate.
    - apply orb_false_iff in Hf. destruct Hf as [Hs _]. exists s, e. destruct e; [auto|discriminate].
    - apply orb_false_iff in Hf. destruct Hf as [_ Hl]. exact (IH k Hl Hn). }
  exact (G ps i E Hi).
Qed.

Lemma req_blocks_pending : forall rem d q sent d' sent', req_blocks d rem q sent = (d', sent') ->
  zlen (pd_pending d') <= Z.max q (zlen (pd_pending d)).
Proof.
  induction rem as [|b r IH]; intros d q sent d' sent' H; cbn [req_blocks] in H.
  - inversion H; subst. lia.
  - destruct (zlen (pd_pending d) >=? q) eqn:Eq; [inversion H; subst; lia|].
    apply IH in H. cbn [pd_pending] in H. destruct (zmem b (pd_pending d)) eqn:Em; [lia|].
    rewrite zlen_app in H. change (zlen [b]) with 1 in H. lia.
Qed.

Lemma zlen_zrem_le x l : zlen (zrem x l) <= zlen l.
Proof.
  unfold zrem, zlen. induction l as [|y r IH]; cbn [filter length]; [lia|]. destruct (negb (y =? x)); cbn [length]; lia.
Qed.

Inductive pdop := PReq (q : Z) | PBlock (begin : Z) (data : list Z) | PChoked | PRejected (begin len : Z).
Definition pd_apply (d : pdl) (o : pdop) : pdl :=
  match o with
  | PReq q => fst (request_blocks d q)
  | PBlock b data => fst (got_blk d b data)
  | PChoked => choked d
  | PRejected b l => fst (rejected d b l)
  end.

(* RequestBlocks(q) never lets the set of in-flight requests grow beyond q (when it was within q);
   received blocks, rejects and chokes only shrink the set *)
Lemma pd_apply_pending d o : zlen (pd_pending (pd_apply d o)) <=
  match o with PReq q => Z.max q (zlen (pd_pending d)) | _ => zlen (pd_pending d) end.
Proof.
  destruct o as [q|b data| |b l]; cbn [pd_apply].
  - unfold request_blocks. destruct (req_blocks d (pd_remaining d) q []) as [d' sent] eqn:E. exact (req_blocks_pending _ _ _ _ _ _ E).
  - unfold got_blk. destruct (negb _); [cbn; lia|]. destruct (zmem b (pd_done d)); [cbn; lia|].
    destruct (zmem b (pd_pending d)); cbn [fst pd_pending]; apply zlen_zrem_le.
  - unfold choked. destruct (pd_af d || pd_fast d); cbn [pd_pending]; [lia|]. unfold zlen. cbn. lia.
  - unfold rejected. destruct (find_block d b l); cbn [fst pd_pending]; [apply zlen_zrem_le|lia].
Qed.

(* every history of the downloader's operations, with any queue lengths q_i <= Q: at most Q requests in flight *)
Theorem pipeline_bounded Q blocks plen af fast ops : 0 <= Q ->
  Forall (fun o => match o with PReq q => q <= Q | _ => True end) ops ->
  zlen (pd_pending (fold_left pd_apply ops (pdl_new blocks plen af fast))) <= Q.
Proof.
  intros HQ Hops. apply (fold_left_inv_Forall pd_apply (fun d => zlen (pd_pending d) <= Q) _) with (2 := Hops).
  - intros d o Hd Ho. pose proof (pd_apply_pending d o). destruct o; lia.
  - unfold pdl_new, zlen. cbn. lia.
Qed.
