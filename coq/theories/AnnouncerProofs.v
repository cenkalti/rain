(* The periodical announcer: another announce is always scheduled, the interval floor, "completed" at
   most once per run. *)
From RainV Require Import Lib Announcer.

Section P.
Variable bo : Z.

(* no announce is in flight and a timer is set *)
Definition sched (a : ann) : Prop := status a <> Contacting /\ exists d, timer a = Some d.

Lemma on_reply_sched a r : sched (on_reply true bo a r).
Proof. destruct r; (split; [discriminate|eexists; reflexivity]). Qed.

Lemma on_post_sched a p a' : sched a -> on_post true a p = (a', None) -> sched a'.
Proof.
  intros [Hs (d & Ht)] H. destruct p as [v|]; cbn [on_post] in H.
  - destruct (status a) eqn:Es; inversion H; subst; (split; cbn [status timer set_timer]; [congruence|eauto]).
  - destruct (armed a); inversion H; subst. split; eauto.
Qed.

Lemma posts_sched : forall ps a a', sched a -> posts true a ps = (a', None) -> sched a'.
Proof.
  induction ps as [|p r IH]; intros a a' Hs H; cbn [posts] in H; [inversion H; subst; exact Hs|].
  destruct (on_post true a p) as [a1 [e|]] eqn:E; [discriminate|].
  eapply IH; [eapply on_post_sched; eassumption|exact H].
Qed.

(* C16: with the fixes, whatever the tracker replies -- reply, tracker error, any other error, or
   a cancellation the announcer did not ask for -- and whatever external events follow, another
   announce is always scheduled: the announcer never gets stuck *)
Theorem never_stuck a r ps : exists a' et, step true bo a r ps = (a', Some et).
Proof.
  unfold step. pose proof (on_reply_sched a r) as Hs.
  destruct (early (on_reply true bo a r)) as [e|]; [unfold fire; eauto|].
  set (a2 := advance _ _). assert (Hs2 : sched a2) by exact Hs.
  destruct (posts true a2 ps) as [a3 [e|]] eqn:Ep; [eauto|].
  destruct (posts_sched _ _ _ Hs2 Ep) as [Hs3 (d & Hd)]. rewrite Hd.
  destruct (status a3); try congruence; unfold fire; eauto.
Qed.

Theorem script_never_stuck : forall script a, ~ In None (run_script true bo a script).
Proof.
  induction script as [|[r ps] rest IH]; intros a H; [destruct H|]. cbn [run_script] in H.
  destruct (never_stuck a r ps) as (a' & et & E). rewrite E in H.
  destruct H as [H|H]; [discriminate|]. exact (IH _ H).
Qed.

(* the pinned code drops an unrequested cancellation and never announces again *)
Theorem never_stuck_refuted_pinned :
  exists a, status a = Contacting /\ snd (step false bo a RCanceled []) = None.
Proof. exists (start 100 false). split; reflexivity. Qed.

(* C15: interval floor.  After a reply, with no intervening event, the next announce is not
   sooner than the tracker's positive interval, or -- when the tracker sent none, zero or a
   negative one, or more peers are needed -- the minimum interval in force *)
Definition floor_of (a : ann) (iv mi : Z) : Z :=
  let m := if mi >? 0 then mi else minint a in
  if need a then m else if iv <=? 0 then m else iv.

Lemma interval_floor_gen a iv mi a' e t :
  step true bo a (ROk iv mi) [] = (a', Some (e, t)) -> t - now a >= floor_of a iv mi /\ e = 0.
Proof.
  unfold step, early, fire. cbn [on_reply set_timer status timer now posts advance].
  change (next_interval true _) with (floor_of a iv mi).
  (* at once or after the 20 ms of the step, the announce starts no sooner than the timer's deadline *)
  destruct (now a + Z.max 0 (floor_of a iv mi) <? now a + 20); intros [= <- <- <-]; cbn [now]; lia.
Qed.

Theorem interval_floor a iv mi a' e t : 0 <= minint a ->
  step true bo a (ROk iv mi) [] = (a', Some (e, t)) -> t - now a >= floor_of a iv mi /\ e = 0.
Proof. intros _. apply interval_floor_gen. Qed.

Theorem interval_floor_refuted_pinned :
  exists a iv mi t e, 0 < minint a /\ snd (step false bo a (ROk iv mi) []) = Some (e, t) /\
    t - now a < Z.min (minint a) (if iv >? 0 then iv else minint a).
Proof.
  exists (start 100 false), 0, 0, 0, 0. split; [cbn; lia|]. split; [reflexivity|]. cbn. lia.
Qed.

(* C15: event discipline.  "completed" is sent at most once per run, and never when the torrent
   was already complete when the run started *)
Fixpoint count_completed (l : list (option (Z * Z))) : nat :=
  match l with
  | [] => 0
  | Some (1, _) :: r => S (count_completed r)
  | _ :: r => count_completed r
  end.

Lemma posts_armed fixed : forall ps a a' e, posts fixed a ps = (a', e) ->
  (e = Some 1 /\ armed a = true /\ armed a' = false) \/ (e = None /\ armed a' = armed a).
Proof.
  induction ps as [|p r IH]; intros a a' e H; cbn [posts] in H; [inversion H; subst; right; auto|].
  destruct p as [v|]; cbn [on_post] in H.
  - destruct (status a); apply IH in H; cbn [armed set_timer] in H; exact H.
  - destruct (armed a) eqn:Ea.
    + inversion H; subst. left. cbn [armed do_announce]. auto.
    + apply IH in H. rewrite Ea in H. destruct H as [(H1 & H2 & _)|H]; [congruence|right; assumption].
Qed.

Lemma on_reply_armed fixed a r : armed (on_reply fixed bo a r) = armed a.
Proof. destruct r; cbn [on_reply set_timer armed]; try reflexivity. destruct fixed; reflexivity. Qed.

Lemma count_completed_cons x l : count_completed (x :: l) = (count_completed [x] + count_completed l)%nat.
Proof. destruct x as [[[|[?|?|]|?] ?]|]; reflexivity. Qed.

(* [armed] is the budget of "completed" events: a step spends it or leaves it *)
Lemma step_budget fixed a r ps a' et : step fixed bo a r ps = (a', et) ->
  (count_completed [et] + (if armed a' then 1 else 0) <= (if armed a then 1 else 0))%nat.
Proof.
  intros H. unfold step, fire in H. pose proof (on_reply_armed fixed a r) as Hr.
  destruct (early (on_reply fixed bo a r)).
  - inversion H; subst. cbn [count_completed armed do_announce advance]. rewrite Hr. lia.
  - destruct (posts fixed _ ps) as [a3 e] eqn:Ep. apply posts_armed in Ep. cbn [armed advance] in Ep. rewrite Hr in Ep.
    destruct Ep as [(-> & H1 & H2)|(-> & H1)].
    + inversion H; subst. rewrite H1, H2. cbn [count_completed]. lia.
    + destruct (status a3), (timer a3); inversion H; subst;
        cbn [count_completed armed do_announce advance]; rewrite H1; lia.
Qed.

Theorem completed_at_most_once fixed : forall script a,
  (count_completed (run_script fixed bo a script) <= (if armed a then 1 else 0))%nat.
Proof.
  induction script as [|[r ps] rest IH]; intros a; cbn [run_script]; [cbn; lia|].
  destruct (step fixed bo a r ps) as [a' [et|]] eqn:E; apply step_budget in E; [|lia].
  rewrite count_completed_cons. specialize (IH a'). lia.
Qed.

Corollary no_completed_when_started_complete fixed mi script :
  count_completed (run_script fixed bo (start mi true) script) = 0%nat.
Proof. pose proof (completed_at_most_once fixed script (start mi true)) as H. cbn in H. lia. Qed.
End P.
