(* C04: the invariant on every reachable state of the repaired handlers, the clauses of the property
   read off it, and the witnesses against the pinned handlers. *)
From RainV Require Import Lib Life LifeProofs.

(* an observed "piece i downloaded" is legal when the torrent is downloading and does not have the piece *)
Definition legal (s : life) (e : levent) : Prop :=
  match e with
  | EPiece i => status s = 1 /\ match bf s with Some b => nth (Z.to_nat i) b true = false | None => True end
  | _ => True
  end.

Fixpoint run_evs (fixed : bool) (s : life) (es : list levent) : life :=
  match es with [] => s | e :: r => run_evs fixed (apply_ev fixed s e) r end.
Fixpoint all_legal (fixed : bool) (s : life) (es : list levent) : Prop :=
  match es with [] => True | e :: r => legal s e /\ all_legal fixed (apply_ev fixed s e) r end.

Lemma shape_apply s e : shape s -> legal s e -> shape (apply_ev true s e).
Proof.
  intros H Hl. destruct e; cbn [apply_ev].
  - apply shape_start, H.
  - apply shape_stop, H.
  - apply shape_verify_cmd, H.
  - apply shape_alloc_done, shape_mutate, H.
  - apply shape_verify_done, H.
  - apply shape_stopped_done, H.
  - destruct Hl. apply shape_piece_written; assumption.
  - apply shape_mutate, H.
  - apply shape_persist, H.
Qed.

Definition life_init (fx pk : list bool) (nf : Z) : life :=
  {| started := false; stopping := false; alloc := false; verif := false; completed := false;
     complC_closed := false; has_pieces := false; bf := None; do_verify := false; held := 0; pending := 0; leaked := 0;
     persisted := None; fexists := fx; pok := pk; nfiles := nf; restart := false; crashed := false |}.

Lemma run_shape es : forall s, shape s -> all_legal true s es -> shape (run_evs true s es).
Proof.
  induction es as [|e r IH]; intros s H Hl; [exact H|]. destruct Hl as [L1 L2]. apply IH; [apply shape_apply; assumption|exact L2].
Qed.

Lemma life_shape fx pk nf es : all_legal true (life_init fx pk nf) es -> shape (run_evs true (life_init fx pk nf) es).
Proof. apply run_shape. exact (shape_init fx pk nf). Qed.

Theorem life_inv fx pk nf es : all_legal true (life_init fx pk nf) es -> LInv (run_evs true (life_init fx pk nf) es).
Proof. intros Hl. apply shape_linv, life_shape, Hl. Qed.

(* the statements of C04 on every reachable state of the repaired code *)
Theorem life_truthful fx pk nf es : all_legal true (life_init fx pk nf) es ->
  let s := run_evs true (life_init fx pk nf) es in
  crashed s = false /\
  (status s = 2 -> exists b, bf s = Some b /\ all_true b = true) /\
  (status s = 0 \/ status s = 6 -> held s + pending s + leaked s = 0) /\
  (status s = 1 \/ status s = 2 -> do_verify s = false).
Proof.
  (* the status is a function of the phase: 0, 6, 4, 5, and 2 or 1 for Running *)
  intros Hl. cbn zeta. destruct (life_shape fx pk nf es Hl) as [| | | |[] b ? ? ? ? ? C]; cbn.
  all: repeat split; try discriminate; try (intros [E|E]; discriminate E); try reflexivity.
  intros _. exists b. split; [reflexivity|exact (C eq_refl)].
Qed.

(* the pinned handlers violate each clause: witnesses (replayed by kind 401) *)
Definition w_complete : list levent :=
  [EStart; EAlloc true false [false] [true] [true]; EVerDone; EStop; EStopped].

Theorem pinned_crashes_on_second_completion :
  crashed (run_evs false (life_init [true] [true] 1)
             (w_complete ++ [EMutate [true] [false]; EVerify; EAlloc true false [false] [false] [true]; EVerDone; EStopped;
                             EStart; EAlloc true false [false] [false] [true]; EPiece 0])) = true.
Proof. vm_compute. reflexivity. Qed.

Theorem pinned_seeds_without_data :
  let s := run_evs false (life_init [true] [true] 1)
             (w_complete ++ [EMutate [false] [false]; EStart; EAlloc false true [false] [false] [true]]) in
  status s = 2 /\ bf s = Some [false].
Proof. vm_compute. split; reflexivity. Qed.

Theorem pinned_drops_start_while_stopping :
  status (run_evs false (life_init [false] [false] 1) [EStart; EStop; EStart; EStopped]) = 0 /\
  status (run_evs true (life_init [false] [false] 1) [EStart; EStop; EStart; EStopped]) = 4.
Proof. vm_compute. split; reflexivity. Qed.

Theorem pinned_verify_without_data_downloads :
  let s := run_evs false (life_init [false] [false] 1) [EVerify; EAlloc false true [false] [false] [true]] in
  status s = 1 /\ do_verify s = true.
Proof. vm_compute. split; reflexivity. Qed.

Theorem pinned_leaks_handles :
  let s := run_evs false (life_init [false] [false] 1) [EStart; EStop; EStopped] in
  status s = 0 /\ held s + pending s + leaked s = 1.
Proof. vm_compute. split; reflexivity. Qed.

Example life_nonvacuous : all_legal true (life_init [true] [true] 1) (w_complete ++ [EStart; EAlloc true false [false] [true] [true]]).
Proof. vm_compute. repeat split. Qed.
