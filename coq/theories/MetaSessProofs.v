(* Metadata phase: for every event history and every observed choice of info downloaders,
   (1) metadata is adopted only when the announced size equals the size of the true info dictionary
       and the last bytes copied into every 16 KiB block were the true bytes (so the assembled buffer is
       the info dictionary whose SHA-1 is the info-hash);
   (2) an info downloader -- whose creation allocates a buffer of the announced size -- exists only
       for an announced size in (0, MaxMetadataSize]. *)
From RainV Require Import Lib InfoDl MetaSess.

Definition idl_ok (s : mst) (q : mpeer) : Prop :=
  forall d, m_idl q = Some d -> 0 < d_size d <= t_max s.
(* what the invariant reads of the state beside the peers *)
Definition mconsts (s : mst) := (t_truesize s, t_max s, t_adopted s, t_adopted_from s).

Record MetaInv (truesize mx : Z) (s : mst) : Prop := {
  mi_size : t_truesize s = truesize;
  mi_max : t_max s = mx;
  mi_idl : Forall (idl_ok s) (t_peers s);
  mi_adopt : t_adopted s = true ->
             exists recv, t_adopted_from s = Some (truesize, recv) /\ forallb (fun x => x =? 1) recv = true
}.

Lemma minv_peers s ps : mconsts (mwith_peers s ps) = mconsts s. Proof. reflexivity. Qed.

Lemma idl_ok_consts s s' q : t_max s' = t_max s -> idl_ok s q -> idl_ok s' q.
Proof. unfold idl_ok. intros E H d Hd. rewrite E. auto. Qed.

Lemma metainv_ext tz mx s s' : mconsts s' = mconsts s -> Forall (idl_ok s) (t_peers s') -> MetaInv tz mx s -> MetaInv tz mx s'.
Proof.
  intros E Hp [A B C D]. inversion E as [[E1 E2 E3 E4]]. constructor; try congruence.
  - eapply Forall_impl; [|exact Hp]. intros q. apply idl_ok_consts. exact E2.
  - rewrite E3, E4. exact D.
Qed.

Lemma mupd_list_Forall (P : mpeer -> Prop) f : forall l i, Forall P l -> (forall x, P x -> P (f x)) -> Forall P (mupd_list l i f).
Proof.
  induction l as [|x r IH]; intros i Hl Hf; cbn; [constructor|]. inversion Hl; subst.
  destruct i; constructor; auto.
Qed.
Lemma mget_ok tz mx s p : MetaInv tz mx s -> idl_ok s (mget s p).
Proof.
  intros H. unfold mget. apply nth_Forall; [exact (mi_idl _ _ _ H)|]. intros d E. discriminate.
Qed.

Lemma metainv_upd tz mx s p f : MetaInv tz mx s -> (forall q, idl_ok s q -> idl_ok s (f q)) -> MetaInv tz mx (mupd s p f).
Proof.
  intros H Hf. unfold mupd. destruct (p <? 0); [exact H|].
  apply (metainv_ext _ _ s); [reflexivity| |exact H]. apply mupd_list_Forall; [apply H|exact Hf].
Qed.
Lemma metainv_bad tz mx s w : MetaInv tz mx s -> MetaInv tz mx (mbad s w).
Proof. intros H. apply (metainv_ext _ _ s); [reflexivity|apply H|exact H]. Qed.

Lemma ok_same_idl s q q' : m_idl q' = m_idl q -> idl_ok s q -> idl_ok s q'.
Proof. unfold idl_ok. intros E H. rewrite E. exact H. Qed.
Lemma ok_mset_none s q closed shake snub chok queue fr : idl_ok s (mset q closed shake None snub chok queue fr).
Proof. unfold idl_ok, mset; cbn. intros d H; discriminate. Qed.
Lemma ok_mset_some s q closed shake d snub chok queue fr : 0 < d_size d <= t_max s ->
  idl_ok s (mset q closed shake (Some d) snub chok queue fr).
Proof. unfold idl_ok, mset; cbn. intros H d' E. inversion E; subst. exact H. Qed.
Lemma ok_close s q : idl_ok s q -> idl_ok s (mclose_q q).
Proof. intros H. unfold mclose_q. destruct (negb (m_present q)); [exact H|apply ok_mset_none]. Qed.
Lemma ok_add_frames s q fs : idl_ok s q -> idl_ok s (madd_frames q fs).
Proof. intros H. unfold madd_frames. destruct (m_closed q); [exact H|]. exact (ok_same_idl s q _ eq_refl H). Qed.

Lemma metainv_upd_same tz mx s p f : MetaInv tz mx s -> (forall q, m_idl (f q) = m_idl q) -> MetaInv tz mx (mupd s p f).
Proof. intros H Hf. apply metainv_upd; [exact H|]. intros q. apply ok_same_idl, Hf. Qed.

Lemma metainv_close tz mx s p : MetaInv tz mx s -> MetaInv tz mx (mclose s p).
Proof. intros H. apply metainv_upd; [exact H|]. intros q. apply ok_close. Qed.

Lemma metainv_request tz mx s p : MetaInv tz mx s -> MetaInv tz mx (mrequest s p).
Proof.
  intros H. unfold mrequest. destruct (m_idl (mget s p)) as [d|] eqn:Ed; [|exact H].
  destruct (request_blocks _ _ _ _) as [dl' idx]. apply metainv_upd; [exact H|].
  intros q _. apply ok_add_frames, ok_mset_some. exact (mget_ok _ _ s p H d Ed).
Qed.

Lemma metainv_massign_go tz mx : forall obs s tries p, MetaInv tz mx s -> MetaInv tz mx (massign_go s tries obs p).
Proof.
  induction obs as [|o r IH]; intros s tries p H; cbn [massign_go]; [exact H|]. apply IH.
  destruct (m_idl (mget s p)), (z2b o); try exact H; try (apply metainv_bad; exact H).
  destruct (tries && meligible s (mget s p)) eqn:El; [|apply metainv_bad; exact H].
  destruct (m_shake (mget s p)) as [[[has size] rq]|] eqn:Es; [|apply metainv_bad; exact H].
  apply metainv_request. apply metainv_upd; [exact H|]. intros q _. apply ok_mset_some. cbn.
  apply andb_prop in El as [_ El]. unfold meligible in El. rewrite Es in El. destruct has; [|rewrite !Bool.andb_false_r in El; discriminate].
  rewrite !Bool.andb_true_iff in El. lia.
Qed.
Lemma metainv_massign tz mx s tries obs : MetaInv tz mx s -> MetaInv tz mx (massign s tries obs).
Proof.
  intros H. unfold massign. destruct (negb _); [apply metainv_bad; exact H|].
  pose proof (metainv_massign_go tz mx obs s tries 0 H) as H1.
  destruct (_ >? _); [apply metainv_bad; exact H1|]. destruct (_ && _); [apply metainv_bad|]; exact H1.
Qed.

Lemma metainv_data tz mx s p piece len good : MetaInv tz mx s -> MetaInv tz mx (fst (m_data s p piece len good)).
Proof.
  intros H. unfold m_data. destruct (m_idl (mget s p)) as [d|] eqn:Ed; [|exact H].
  destruct (mgot (d_dl d) piece len) as [dl' r]. destruct r; try (apply metainv_close; exact H).
  match goal with |- context [all_blocks_in ?x] => set (d' := x) end.
  pose proof (mget_ok _ _ s p H d Ed) as Hsz.
  destruct (negb (all_blocks_in d')).
  - apply metainv_request. apply metainv_upd; [exact H|]. intros q _. apply ok_mset_some. exact Hsz.
  - destruct (forallb (fun x => x =? 1) (d_recv d') && (d_size d' =? t_truesize s)) eqn:Ea; [|apply metainv_close; exact H].
    (* adoption: every info downloader is stopped *)
    apply andb_prop in Ea as [E1 E2]. destruct H as [A B C D]. constructor; cbn; try assumption.
    + apply Forall_map, Forall_forall. intros q _. apply ok_mset_none.
    + intros _. exists (d_recv d'). split; [f_equal; f_equal; cbn in *; lia|exact E1].
Qed.

Lemma metainv_reqfp tz mx s p a : MetaInv tz mx s -> MetaInv tz mx (fst (m_request_from_peer s p a)).
Proof.
  intros H. unfold m_request_from_peer. destruct (m_shake _) as [[[[|] ?] ?]|]; try exact H.
  destruct (_ || _); [|exact H]. apply metainv_upd; [exact H|]. intros q. apply ok_add_frames.
Qed.
Lemma metainv_other tz mx s p a b : MetaInv tz mx s -> MetaInv tz mx (fst (m_other s p a b)).
Proof.
  intros H. unfold m_other. destruct (_ || _); [apply metainv_close; exact H|].
  destruct (_ || _); [apply metainv_upd_same; [exact H|reflexivity]|].
  destruct (a =? 1); [apply metainv_upd_same; [exact H|reflexivity]|].
  destruct (a =? 0); [apply metainv_upd_same; [exact H|reflexivity]|exact H].
Qed.
Lemma metainv_connect tz mx s p e : MetaInv tz mx s -> MetaInv tz mx (fst (m_connect s p e)).
Proof.
  intros H. unfold m_connect. destruct (m_present _); [apply metainv_bad; exact H|]. apply metainv_upd; [exact H|]. intros q _ d0 E. discriminate.
Qed.

Lemma metainv_dispatch tz mx s code p a b c d : MetaInv tz mx s -> MetaInv tz mx (fst (mdispatch s code p a b c d)).
Proof.
  unfold mdispatch. destruct (t_adopted s).
  { destruct (code =? 5); [apply metainv_close|]. destruct (code =? 6); [apply metainv_reqfp|].
    destruct (code =? 7); [apply metainv_other|]. destruct (code =? 12); [apply metainv_connect|apply metainv_bad]. }
  destruct (code =? 1).
  { intros H. unfold m_handshake. destruct (m_shake (mget s p)); [exact H|]. apply metainv_upd_same; [exact H|reflexivity]. }
  destruct (code =? 2); [apply metainv_data|].
  destruct (code =? 3); [unfold m_reject; destruct (m_idl _); [apply metainv_close|auto]|].
  destruct (code =? 4).
  { intros H. unfold m_snubbed. destruct (m_idl _); [|exact H]. apply metainv_upd_same; [exact H|reflexivity]. }
  destruct (code =? 5); [apply metainv_close|].
  destruct (code =? 6); [apply metainv_reqfp|].
  destruct (code =? 7); [apply metainv_other|].
  destruct (code =? 12); [apply metainv_connect|auto].
Qed.

Theorem metainv_step tz mx s ev idls : MetaInv tz mx s -> MetaInv tz mx (fst (mstep s ev idls)).
Proof.
  intros H. unfold mstep.
  assert (H0 : MetaInv tz mx (mclear s)).
  { apply (metainv_ext _ _ s); [reflexivity| |exact H]. apply Forall_map.
    eapply Forall_impl; [|apply H]. intros q. apply ok_same_idl. reflexivity. }
  destruct ev as [|code [|p [|a [|b [|c [|d [|x r]]]]]]]; try (apply metainv_bad; exact H0).
  pose proof (metainv_dispatch tz mx (mclear s) code p a b c d H0) as H1.
  destruct (mdispatch (mclear s) code p a b c d) as [s1 tries]. apply metainv_massign. exact H1.
Qed.

Inductive mreach (s0 : mst) : mst -> Prop :=
| mreach_init : mreach s0 s0
| mreach_step s ev idls : mreach s0 s -> mreach s0 (fst (mstep s ev idls))
| mreach_bad s w : mreach s0 s -> mreach s0 (mbad s w).

Definition minit (truesize mx par q np : Z) (P : nat) : mst :=
  {| t_peers := repeat mdefault P; t_adopted := false; t_truesize := truesize; t_max := mx;
     t_parallel := par; t_q := q; t_np := np; t_adopted_from := None; t_bad := 0 |}.

Theorem mreach_inv truesize mx par q np P s : mreach (minit truesize mx par q np P) s -> MetaInv truesize mx s.
Proof.
  intros Hr. induction Hr; [|apply metainv_step; assumption|apply metainv_bad; assumption].
  constructor; cbn; try reflexivity; [|discriminate].
  apply Forall_forall. intros x Hx. apply repeat_spec in Hx. subst. intros d E. discriminate.
Qed.

Theorem adoption_sound truesize mx par q np P s : mreach (minit truesize mx par q np P) s ->
  (t_adopted s = true -> exists recv, t_adopted_from s = Some (truesize, recv) /\ forallb (fun x => x =? 1) recv = true) /\
  (forall p d, m_idl (mget s p) = Some d -> 0 < d_size d <= mx).
Proof.
  intros Hr. pose proof (mreach_inv _ _ _ _ _ _ _ Hr) as Hi. split; [exact (mi_adopt _ _ _ Hi)|].
  intros p d Hd. rewrite <- (mi_max _ _ _ Hi). exact (mget_ok _ _ s p Hi d Hd).
Qed.
