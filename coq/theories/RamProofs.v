(* The resource manager: the memory handed out and the memory available always add up to the limit. *)
From RainV Require Import Lib Ram.
From Coq Require Import ZifyBool.

Definition lsum (l : list (Z * Z)) : Z := fold_right (fun kv acc => snd kv + acc) 0 l.

Record RInv (s : ram) : Prop := {
  ri_range : 0 <= available s <= limit_ s;
  ri_sum : limit_ s - available s = lsum (live s);
  ri_obj : objects s = zlen (live s);
  ri_nonneg : Forall (fun kv => 0 <= snd kv) (live s)
}.

Lemma lsum_nonneg l : Forall (fun kv => 0 <= snd kv) l -> 0 <= lsum l.
Proof. unfold lsum. induction 1; cbn [fold_right]; lia. Qed.

(* what a release takes out of the live reservations *)
Lemma find_del_live id : forall l n, find_live id l = Some n -> Forall (fun kv => 0 <= snd kv) l ->
  lsum (del_live id l) = lsum l - n /\ zlen (del_live id l) = zlen l - 1 /\
  Forall (fun kv : Z * Z => 0 <= snd kv) (del_live id l) /\ 0 <= n.
Proof.
  induction l as [|[k m] r IH]; intros n H Hl; cbn [find_live] in H; [discriminate|].
  inversion Hl as [|? ? Hm Hr]; subst. cbn [snd] in Hm. cbn [del_live].
  destruct (k =? id) eqn:E.
  - inversion H; subst. unfold lsum, zlen. cbn [fold_right snd length]. repeat split; try lia. exact Hr.
  - destruct (IH n H Hr) as (A & B & C & D). unfold lsum, zlen in *. cbn [fold_right snd length].
    repeat split; try lia. constructor; assumption.
Qed.

(* a grant, at once or on notification, books n bytes and one object *)
Lemma grant_inv s id n p : RInv s -> 0 <= n <= available s ->
  RInv {| limit_ := limit_ s; available := available s - n; objects := objects s + 1;
          pending := p; live := (id, n) :: live s |}.
Proof.
  intros [Hr Hs Ho Hn] Hle.
  constructor; cbn [available limit_ objects live]; unfold lsum, zlen in *; cbn [fold_right snd length]; try lia.
  constructor; [cbn; lia|assumption].
Qed.

Lemma find_pending_in id : forall l q, find_pending id l = Some q -> In q l.
Proof.
  induction l as [|x r IH]; intros q H; cbn [find_pending] in H; [discriminate|].
  destruct (q_id x =? id); [inversion H; left; reflexivity|right; apply IH; exact H].
Qed.

(* pending requests carry non-negative sizes (negative requests are refused at the door) *)
Definition PendOk (s : ram) : Prop := Forall (fun q => 0 <= q_n q) (pending s).

Lemma del_pending_ok id l : Forall (fun q => 0 <= q_n q) l -> Forall (fun q => 0 <= q_n q) (del_pending id l).
Proof.
  induction 1 as [|x r Hx Hr IH]; cbn [del_pending]; [constructor|]. destruct (q_id x =? id); [assumption|constructor; assumption].
Qed.

Theorem rstep_inv fixed s o s' : RInv s -> PendOk s -> rstep fixed s o = Some s' -> RInv s' /\ PendOk s'.
Proof.
  intros I Hp H. pose proof I as [Hr Hs Ho Hn]. destruct o as [id key n closed out|id|id|id|]; cbn [rstep] in H.
  - destruct (n <? 0) eqn:En; [destruct out; inversion H; subst; auto|].
    destruct out; [| | | |discriminate].
    + destruct (available s >=? n) eqn:E; [|discriminate]. inversion H; subst.
      split; [apply grant_inv; [exact I|lia]|exact Hp].
    + destruct (available s >=? n); [discriminate|]. inversion H; subst. split; [constructor; assumption|].
      unfold PendOk. cbn [pending]. apply Forall_app. split; [exact Hp|repeat constructor; cbn; lia].
    + destruct (closed && fixed); inversion H; subst. auto.
    + destruct (closed && negb fixed); inversion H; subst. auto.
  - destruct (find_live id (live s)) as [n|] eqn:E; [|discriminate]. inversion H; subst.
    destruct (find_del_live id (live s) n E Hn) as (A & B & C & D). pose proof (lsum_nonneg _ C).
    split; [|exact Hp]. constructor; cbn [available limit_ objects live]; try lia; assumption.
  - destruct (find_pending id (pending s)); inversion H; subst; [|auto]. split; [constructor; assumption|].
    unfold PendOk. cbn [pending]. rewrite Forall_map. eapply Forall_impl; [|exact Hp].
    intros q Hq. destruct (q_id q =? id); cbn; exact Hq.
  - destruct (find_pending id (pending s)) as [q|] eqn:E; [|discriminate].
    destruct (q_n q <=? available s) eqn:El; [|discriminate]. inversion H; subst.
    assert (Hq : 0 <= q_n q).
    { apply find_pending_in in E. unfold PendOk in Hp. rewrite Forall_forall in Hp. apply Hp. exact E. }
    split; [apply grant_inv; [exact I|lia]|unfold PendOk; cbn [pending]; apply del_pending_ok; exact Hp].
  - inversion H; subst. auto.
Qed.

Fixpoint rrun (fixed : bool) (s : ram) (ops : list rop) : option ram :=
  match ops with
  | [] => Some s
  | o :: r => match rstep fixed s o with Some s' => rrun fixed s' r | None => None end
  end.

(* C17: for every sequence of request / notification / cancellation / release events, memory
   reserved never exceeds the limit or goes negative, equals the sum of the reservations that are
   held, and the object counter equals their number *)
Theorem ram_balance fixed lim ops s : 0 <= lim -> rrun fixed (ram_init lim) ops = Some s -> RInv s.
Proof.
  intros Hl H.
  apply (run_inv (rstep fixed) (rrun fixed) (fun _ => eq_refl) (fun _ _ _ => eq_refl) (fun s => RInv s /\ PendOk s)) in H.
  - apply H.
  - intros s0 o s1 [I P]. apply rstep_inv; assumption.
  - split; [|constructor]. constructor; cbn; [lia|lia|reflexivity|constructor].
Qed.

(* a caller is never left blocked by an already-cancelled request (after the fix) ... *)
Theorem request_never_stuck s id key n closed : rstep true s (RReq id key n closed Stuck) = None.
Proof. cbn [rstep]. destruct (n <? 0); [reflexivity|]. destruct closed; reflexivity. Qed.

(* ... which the pinned code allowed *)
Theorem request_stuck_pinned : exists s id key n, rstep false s (RReq id key n true Stuck) = Some s.
Proof. exists (ram_init 16), 1, 0, 2. reflexivity. Qed.

Example ram_example : exists s, rrun true (ram_init 8) [RReq 1 0 8 false Acquired; RReq 2 1 4 false Queued; RRelease 1; RNotified 2] = Some s /\ available s = 4.
Proof. eexists. split; reflexivity. Qed.
