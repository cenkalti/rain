(* C19: every encoding of the private flag is read as the reference client reads it, and a private torrent
   never takes a peer from, or announces to, the DHT or peer exchange, whatever the events. *)
From RainV Require Import Lib Bencode BencodeProofs Priv.

Lemma bytes_eqb_eq a : forall b, bytes_eqb a b = true <-> a = b.
Proof.
  induction a as [|x r IH]; intros [|y r']; cbn [bytes_eqb]; split; intro H; try reflexivity; try discriminate.
  - apply andb_true_iff in H. destruct H as [H1 H2]. apply Z.eqb_eq in H1. apply IH in H2. subst. reflexivity.
  - injection H as -> ->. apply andb_true_iff. split; [apply Z.eqb_refl|apply IH; reflexivity].
Qed.

Lemma priv_of_val_false v : priv_of_val v = false <-> v = BInt 0 \/ v = BStr [] \/ v = BStr [48].
Proof.
  split; [|intros [->|[->| ->]]; reflexivity].
  destruct v as [z|s|l|d]; cbn [priv_of_val]; try discriminate; intro H.
  - destruct (int64_ok z); [|discriminate]. apply negb_false_iff, Z.eqb_eq in H. subst. auto.
  - apply negb_false_iff, orb_true_iff in H. destruct H as [H|H]; apply bytes_eqb_eq in H; subst; auto.
Qed.

Lemma priv_of_raw_enc v : priv_of_raw (enc v) = priv_of_val v.
Proof.
  unfold priv_of_raw. destruct (enc_head v) as (c & r & E & _).
  pose proof (decode_encode v []) as D. rewrite app_nil_r in D. rewrite D. rewrite E. reflexivity.
Qed.

(* every encoding of the flag: absent, or any bencode value *)
Theorem private_flag_decoding :
  priv_of_raw [] = false /\
  forall v, priv_of_raw (enc v) = false <-> v = BInt 0 \/ v = BStr [] \/ v = BStr [48].
Proof. split; [reflexivity|]. intro v. rewrite priv_of_raw_enc. apply priv_of_val_false. Qed.

(* a value that cannot be decoded marks the torrent private *)
Lemma undecodable_is_private s : s <> [] -> decode s = None -> priv_of_raw s = true.
Proof. intros Hs D. unfold priv_of_raw. destruct s; [contradiction|]. rewrite D. reflexivity. Qed.

Definition no_pex (l : list ppeer) : Prop := Forall (fun q => q_pex q = false) l.

(* what a private torrent keeps clear of *)
Definition PrivInv (s : pst) : Prop := p_d s = 0 /\ p_p s = 0 /\ p_ann s = false /\ no_pex (p_peers s).

Lemma is_priv_2 s : p_info s = 2 -> is_priv s = true.
Proof. unfold is_priv. intros ->. reflexivity. Qed.

(* the guard of handleNewPeers: a private torrent takes addresses from neither peer exchange nor the DHT *)
Lemma accepts_private c s src : p_info s = 2 ->
  accepts true c s src = p_run s && negb (src =? 5) && negb (src =? 6).
Proof.
  intro Hi. unfold accepts. rewrite (is_priv_2 s Hi).
  destruct (src =? 5), (src =? 6), (p_run s), (c_pex c); reflexivity.
Qed.

Lemma add_addrs_fields fixed c s src n :
  let s' := add_addrs fixed c s src n in
  p_info s' = p_info s /\ p_ann s' = p_ann s /\ p_peers s' = p_peers s.
Proof. unfold add_addrs. destruct (accepts fixed c s src); cbn; auto. Qed.

(* on a private torrent the DHT and peer-exchange counts do not move *)
Lemma add_addrs_private c s src n : p_info s = 2 ->
  let s' := add_addrs true c s src n in p_d s' = p_d s /\ p_p s' = p_p s.
Proof.
  intro Hi. unfold add_addrs. rewrite (accepts_private c s src Hi).
  destruct (src =? 5), (src =? 6), (p_run s); cbn; auto.
Qed.

Lemma no_pex_upd l i f : no_pex l -> (forall q, q_pex q = false -> q_pex (f q) = false) -> no_pex (upd_peer l i f).
Proof.
  intros H Hf. revert i. induction H as [|q r Hq Hr IH]; intros i; [destruct i; constructor|].
  destruct i as [|k]; cbn [upd_peer]; constructor; auto. apply IH.
Qed.

Lemma no_pex_closed l : no_pex (map close_peer l).
Proof. induction l as [|q r IH]; cbn [map]; constructor; auto. Qed.

(* peers come only from the trackers and the user: the addresses a private torrent knows are bounded by
   what those two supplied *)
Definition offered (e : pev) : Z :=
  match e with
  | PStart n => n
  | PAddrs src n => if (src =? 7) || (src =? 8) then n else 0
  | PProbe src _ => if (src =? 7) || (src =? 8) then 1 else 0
  | _ => 0
  end.
Definition ev_nonneg (e : pev) : Prop :=
  match e with PStart n | PPex _ n | PAddrs _ n => 0 <= n | _ => True end.
Definition known (s : pst) : Z := p_t s + p_d s + p_p s + p_m s.
Definition nonneg_counts (s : pst) : Prop := 0 <= p_t s /\ 0 <= p_d s /\ 0 <= p_p s /\ 0 <= p_m s.

(* the state a start leaves for the answer to its first announce *)
Definition started (c : pcfg) (s : pst) : pst :=
  {| p_info := p_info s; p_run := true; p_t := 0; p_d := 0; p_p := 0; p_m := 0;
     p_ann := c_dht c && negb (is_priv s); p_peers := p_peers s |}.

(* What an event can do to the state, unless it is the metadata of a public magnet link arriving (info 0):
   nothing, add addresses (as many as the event offers, where the source is a tracker or the user), start,
   stop, or change the peers (to a list without PEX senders, if the torrent is private and had none). *)
Inductive moves fixed c s : pev -> pst -> Prop :=
| mv_same e : moves fixed c s e s
| mv_add e src n : (ev_nonneg e -> 0 <= n) -> offered e = (if (src =? 7) || (src =? 8) then n else 0) ->
    moves fixed c s e (add_addrs fixed c s src n)
| mv_start n : moves fixed c s (PStart n) (add_addrs fixed c (started c s) 7 n)
| mv_stop e : moves fixed c s e (stopped s)
| mv_peers e l : (p_info s = 2 -> no_pex (p_peers s) -> no_pex l) -> moves fixed c s e (set_peers s l).

Lemma pstep_moves fixed c s e : p_info s <> 0 -> moves fixed c s e (fst (pstep fixed c s e)).
Proof.
  intro Hi. destruct e; cbn [pstep]; try apply mv_same.
  - (* PStart *) destruct (p_run s); [apply mv_same|apply mv_start].
  - (* PStop *) apply mv_stop.
  - (* PConnect *) destruct (p_run s); [|apply mv_same]. apply mv_peers. intros _ Hx.
    apply Forall_app. split; [exact Hx|]. constructor; [reflexivity|constructor].
  - (* PShake: only a torrent with public metainfo (info 1) makes a PEX sender *)
    destruct (peer_open s p); [|apply mv_same]. apply mv_peers. intros H2 Hx.
    apply no_pex_upd; [exact Hx|]. intros q Hq. destruct (q_shaken q); [exact Hq|]. cbn.
    rewrite H2. apply andb_false_r.
  - (* PPex *) destruct (peer_open s p); [|apply mv_same]. apply mv_add; [exact (fun H => H)|reflexivity].
  - (* PAddrs *) destruct ((src =? 6) || (src =? 7) || (src =? 8)); [|apply mv_same].
    apply mv_add; [exact (fun H => H)|reflexivity].
  - (* PMeta *) destruct (p_run s && peer_open s p); [|apply mv_same].
    destruct (Z.eqb_spec (p_info s) 0); [contradiction|]. destruct (p_info s =? 3); [apply mv_stop|apply mv_same].
  - (* PProbe *) destruct ((src =? 5) && negb (peer_open s p)); [apply mv_same|].
    destruct ((5 <=? src) && (src <=? 8)); [|apply mv_same]. apply mv_add; [exact (fun _ => Z.le_0_1)|reflexivity].
Qed.

(* only the metadata of a magnet link (info 0) ever changes what is known of the info *)
Lemma info_step fixed c s e : p_info s <> 0 -> p_info (fst (pstep fixed c s e)) = p_info s.
Proof.
  intro Hi. destruct (pstep_moves fixed c s e Hi); try reflexivity. apply add_addrs_fields.
Qed.

Lemma private_step fixed c s e : p_info s = 2 -> p_info (fst (pstep fixed c s e)) = 2.
Proof. intro Hi. rewrite info_step; [exact Hi|]. rewrite Hi. discriminate. Qed.

Lemma run_events_inv fixed c (P : pst -> Prop) : (forall s e, P s -> P (fst (pstep fixed c s e))) ->
  forall evs s, P s -> P (run_events fixed c s evs).
Proof. intros Hstep. induction evs as [|e r IH]; intros s H; [exact H|]. apply IH, Hstep, H. Qed.

Lemma reach_info fixed c evs s : p_info s <> 0 -> p_info (run_events fixed c s evs) = p_info s.
Proof.
  intro H. apply (run_events_inv fixed c (fun s' => p_info s' = p_info s)); [|reflexivity].
  intros s' e E. rewrite info_step; [exact E|congruence].
Qed.

Lemma PrivInv_step c s e : p_info s = 2 -> PrivInv s -> PrivInv (fst (pstep true c s e)).
Proof.
  intros Hi H. pose proof H as (Hd & Hp & Ha & Hx). assert (H0 : p_info s <> 0) by (rewrite Hi; discriminate).
  destruct (pstep_moves true c s e H0) as [e|e src n _ _|n|e|e l Hl].
  - (* mv_same *) exact H.
  - (* mv_add *) destruct (add_addrs_fields true c s src n) as (_ & E3 & E4).
    destruct (add_addrs_private c s src n Hi) as (A & B). cbv zeta in *. unfold PrivInv. rewrite A, B, E3, E4. auto.
  - (* mv_start: no DHT announcer is made *) unfold PrivInv; cbn. rewrite (is_priv_2 s Hi), andb_false_r. auto.
  - (* mv_stop *) unfold PrivInv; cbn. auto using no_pex_closed.
  - (* mv_peers *) unfold PrivInv; cbn. auto.
Qed.

Lemma run_events_app fixed c s a b : run_events fixed c s (a ++ b) = run_events fixed c (run_events fixed c s a) b.
Proof. unfold run_events. apply fold_left_app. Qed.

(* the torrent never uses the DHT or peer exchange, whatever happens and however it is configured *)
Lemma private_no_dht_no_pex c evs :
  let s := run_events true c (pinit 2) evs in
  p_info s = 2 /\ p_d s = 0 /\ p_p s = 0 /\ p_ann s = false /\ no_pex (p_peers s).
Proof.
  apply (run_events_inv true c (fun s => p_info s = 2 /\ PrivInv s)).
  - intros s e [Hi H]. split; [apply private_step, Hi|apply PrivInv_step; assumption].
  - unfold PrivInv; cbn. repeat split; constructor.
Qed.

(* what the events themselves show, in any reachable state of a private torrent *)
Lemma private_outputs c evs e :
  let s := run_events true c (pinit 2) evs in
  let out := snd (pstep true c s e) in
  (e = PExport -> out = [1]) /\                                   (* magnet export refused *)
  (forall n, e = PStart n -> p_run s = false -> out = [1; 1]) /\   (* announce: private user agent and peer id *)
  (e = PConnect -> p_run s = true -> out = [1]) /\                 (* handshake: private client version *)
  (forall p, e = PProbe 5 p -> out = [0]) /\                       (* an address sent by peer exchange is never dialled *)
  (forall p, e = PProbe 6 p -> out = [0]).                         (* nor one delivered by the DHT *)
Proof.
  cbv zeta. assert (Hi : p_info (run_events true c (pinit 2) evs) = 2) by (apply (reach_info true c evs (pinit 2)); discriminate).
  set (s := run_events true c (pinit 2) evs) in *.
  pose proof (is_priv_2 s Hi) as Hp.
  repeat split.
  - intros ->. cbn. rewrite Hp. reflexivity.
  - intros n -> Hr. cbn. rewrite Hr, Hp. reflexivity.
  - intros -> Hr. cbn. rewrite Hr, Hp. reflexivity.
  - intros p ->. cbn. destruct (negb (peer_open s p)); [reflexivity|]. cbn.
    rewrite (accepts_private c s 5 Hi), andb_false_r. reflexivity.
  - intros p ->. cbn. rewrite (accepts_private c s 6 Hi), andb_false_r. reflexivity.
Qed.

(* the tracker and user counts of known addresses move by what their sources offered *)
Lemma add_addrs_bound c s src n : p_info s = 2 -> 0 <= n -> nonneg_counts s ->
  let s' := add_addrs true c s src n in
  nonneg_counts s' /\ known s' <= known s + (if (src =? 7) || (src =? 8) then n else 0).
Proof.
  intros Hi Hn (A & B & C & D). unfold add_addrs. rewrite (accepts_private c s src Hi). unfold known, nonneg_counts.
  destruct (p_run s); cbn; [|destruct ((src =? 7) || (src =? 8)); lia].
  destruct (Z.eqb_spec src 5) as [->|]; [cbn; lia|]. destruct (Z.eqb_spec src 6) as [->|]; [cbn; lia|].
  destruct (Z.eqb_spec src 7) as [->|]; [cbn; lia|]. destruct (src =? 8); cbn; lia.
Qed.

Lemma offered_nonneg e : ev_nonneg e -> 0 <= offered e.
Proof. destruct e; cbn; try lia; destruct ((src =? 7) || (src =? 8)); lia. Qed.

Lemma known_step c s e : p_info s = 2 -> ev_nonneg e -> nonneg_counts s ->
  let s' := fst (pstep true c s e) in nonneg_counts s' /\ known s' <= known s + offered e.
Proof.
  intros Hi He Hs. cbv zeta. pose proof Hs as (A & B & C & D). pose proof (offered_nonneg e He) as Ho.
  assert (H0 : p_info s <> 0) by (rewrite Hi; discriminate).
  destruct (pstep_moves true c s e H0) as [e|e src n Hn Hsrc|n|e|e l _].
  - (* mv_same *) split; [exact Hs|lia].
  - (* mv_add *) rewrite Hsrc. exact (add_addrs_bound c s src n Hi (Hn He) Hs).
  - (* mv_start: the counts are zeroed, then the tracker's n come in *) unfold nonneg_counts, known. cbn in *. lia.
  - (* mv_stop *) unfold nonneg_counts, known. cbn. lia.
  - (* mv_peers *) unfold nonneg_counts, known. cbn. lia.
Qed.

Lemma known_run c : forall evs s, Forall ev_nonneg evs -> p_info s = 2 -> nonneg_counts s ->
  known (run_events true c s evs) <= known s + fold_right (fun e a => offered e + a) 0 evs.
Proof.
  induction evs as [|e r IH]; intros s Hf Hi Hs; [cbn; lia|]. apply Forall_cons_iff in Hf as [He Hr].
  destruct (known_step c s e Hi He Hs) as [X Y]. specialize (IH _ Hr (private_step true c s e Hi) X).
  cbn [run_events fold_left fold_right]. unfold run_events in IH. lia.
Qed.

Lemma private_known_bounded c evs : Forall ev_nonneg evs ->
  known (run_events true c (pinit 2) evs) <= fold_right (fun e a => offered e + a) 0 evs.
Proof. intro Hf. apply (known_run c evs (pinit 2) Hf eq_refl). unfold nonneg_counts. cbn. lia. Qed.

(* a magnet link whose metadata turns out to be private: the metadata is never adopted, and its arrival stops the torrent *)
Lemma private_metadata_refused fixed c evs :
  let s := run_events fixed c (pinit 3) evs in
  p_info s = 3 /\
  forall p, p_run s = true -> peer_open s p = true ->
    snd (pstep fixed c s (PMeta p)) = [0] /\ p_run (fst (pstep fixed c s (PMeta p))) = false /\ known (fst (pstep fixed c s (PMeta p))) = 0.
Proof.
  cbv zeta. assert (Hi : p_info (run_events fixed c (pinit 3) evs) = 3) by (apply (reach_info fixed c evs (pinit 3)); discriminate).
  split; [exact Hi|]. intros p Hr Ho. cbn [pstep]. rewrite Hr, Ho, Hi. cbn. auto.
Qed.

(* the code as pinned: a private torrent takes the addresses of a PEX message and of a DHT result *)
Lemma pinned_private_takes_pex_and_dht :
  let c := {| c_dht := true; c_pex := true; c_dial := true |} in
  let s := run_events false c (pinit 2) [PStart 0; PConnect; PPex 0 2; PAddrs 6 3] in
  p_p s = 2 /\ p_d s = 3 /\ snd (pstep false c s (PProbe 5 0)) = [1].
Proof. vm_compute. auto. Qed.

(* the same history with the guard in place; and a public torrent does use both (the model is not trivially zero) *)
Example fixed_same_history :
  let c := {| c_dht := true; c_pex := true; c_dial := true |} in
  let s := run_events true c (pinit 2) [PStart 2; PConnect; PPex 0 2; PAddrs 6 3; PAddrs 8 1] in
  (p_t s, p_d s, p_p s, p_m s) = (2, 0, 0, 1).
Proof. vm_compute. reflexivity. Qed.

Example public_uses_both :
  let c := {| c_dht := true; c_pex := true; c_dial := true |} in
  let s := run_events true c (pinit 1) [PStart 2; PConnect; PShake 0 true; PPex 0 2; PAddrs 6 3] in
  (p_t s, p_d s, p_p s, p_ann s, map q_pex (p_peers s)) = (2, 3, 2, true, [true]).
Proof. vm_compute. reflexivity. Qed.
