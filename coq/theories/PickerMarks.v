(* C09 (stalled-download marks): in every reachable state the Choked and Snubbed sets of a piece
   describe the current download of the peers in them; the assertion of HandleSnubbed cannot fire. *)
From RainV Require Import Lib Picker PickerProofs.

Definition SN (s : picker) (i : Z) : list Z := p_snub (get_piece s i).
Definition CH (s : picker) (i : Z) : list Z := p_chok (get_piece s i).
Definition CK (s : picker) (pe : Z) : bool := pe_choking (get_peer (peers s) pe).

(* a peer in the Choked set of a piece chokes us and is downloading that piece, not as allowed-fast; a peer in
   the Snubbed set is downloading it; no peer is in both *)
Record MInv (s : picker) : Prop := {
  m_ch : forall i pe, 0 <= i -> In pe (CH s i) -> CK s pe = true /\ PP s pe = Some (i, false);
  m_sn : forall i pe, 0 <= i -> In pe (SN s i) -> exists af, PP s pe = Some (i, af);
  m_dj : forall i pe, 0 <= i -> In pe (CH s i) -> ~ In pe (SN s i)
}.

Lemma upd_marks s i f : in_range s i = true ->
  (forall j, 0 <= j -> SN (upd_piece s i f) j = if j =? i then p_snub (f (get_piece s i)) else SN s j) /\
  (forall j, 0 <= j -> CH (upd_piece s i f) j = if j =? i then p_chok (f (get_piece s i)) else CH s j).
Proof. intros Hr. split; intros j Hj; unfold SN, CH; rewrite get_upd_piece by assumption; destruct (j =? i); reflexivity. Qed.

Lemma upd_marks_out s i f : 0 <= i -> in_range s i = false -> upd_piece s i f = s \/ True.
Proof. auto. Qed.

Lemma with_peer_views s pe v q :
  PP (with_peer s pe v) q = (if q =? pe then pe_piece v else PP s q) /\
  CK (with_peer s pe v) q = (if q =? pe then pe_choking v else CK s q).
Proof. split; [apply peer_views|]. unfold CK. cbn [with_peer peers]. rewrite get_set_peer. destruct (q =? pe); reflexivity. Qed.

Lemma disconnect_marks s pe j q : let s' := forget_peer (handle_disconnect s pe) pe in
  (In q (SN s' j) -> In q (SN s j) /\ q <> pe) /\ (In q (CH s' j) -> In q (CH s j) /\ q <> pe).
Proof.
  intros s'. unfold SN, CH. change (get_piece s' j) with (get_piece (handle_disconnect s pe) j).
  rewrite get_handle_disconnect. cbn [drop_peer set_having set_marks p_snub p_chok]. rewrite !in_srem. tauto.
Qed.

Lemma nowhere_marked s pe : MInv s -> (forall i, PP s pe <> Some (i, false)) ->
  forall i, 0 <= i -> ~ In pe (CH s i).
Proof. intros M H i Hi Hin. destruct (m_ch s M i pe Hi Hin) as [_ E]. exact (H i E). Qed.

Lemma pe_unmarked s pe : MInv s -> PP s pe = None -> forall j, 0 <= j -> ~ (In pe (CH s j) \/ In pe (SN s j)).
Proof.
  intros M Hn j Hj [Hin|Hin].
  - destruct (m_ch s M j pe Hj Hin) as [_ E]. congruence.
  - destruct (m_sn s M j pe Hj Hin) as [af E]. congruence.
Qed.

(* the panic of HandleSnubbed ("peer snubbed while choked") cannot fire *)
Lemma snub_no_panic s pe : MInv s -> pstep s (OSnub pe) <> None.
Proof.
  intros M. cbn [pstep]. destruct (pe_piece (get_peer (peers s) pe)) as [[i af]|] eqn:Ep; [|discriminate].
  destruct (pe_choking (get_peer (peers s) pe)) eqn:Ec; [discriminate|].
  destruct (mem pe (p_chok (get_piece s i))) eqn:Em; [|discriminate].
  exfalso. apply mem_true in Em.
  rewrite get_piece_neg in Em. destruct (m_ch s M (Z.max 0 i) pe ltac:(lia) Em) as [C _]. unfold CK in C. congruence.
Qed.

(* marks may only go; a peer that stays marked keeps its download and its choking flag *)
Lemma minv_sub s s' : MInv s ->
  (forall i q, 0 <= i -> In q (SN s' i) -> In q (SN s i)) ->
  (forall i q, 0 <= i -> In q (CH s' i) -> In q (CH s i)) ->
  (forall i q, 0 <= i -> In q (CH s' i) \/ In q (SN s' i) -> PP s' q = PP s q) ->
  (forall i q, 0 <= i -> In q (CH s' i) -> CK s' q = CK s q) -> MInv s'.
Proof.
  intros M HS HC HP HK. constructor; intros i q Hi H.
  - rewrite (HK i q Hi H), (HP i q Hi (or_introl H)). exact (m_ch s M i q Hi (HC i q Hi H)).
  - rewrite (HP i q Hi (or_intror H)). exact (m_sn s M i q Hi (HS i q Hi H)).
  - intros H'. exact (m_dj s M i q Hi (HC i q Hi H) (HS i q Hi H')).
Qed.

Lemma minv_ext s s' : pieces s' = pieces s -> peers s' = peers s -> MInv s -> MInv s'.
Proof. destruct s, s'. cbn. intros -> -> [A B C]. constructor; assumption. Qed.

(* the marks of one piece replaced by sets that satisfy the invariant for that piece *)
Lemma upd_minv s i f : MInv s -> in_range s i = true ->
  (forall q, In q (p_chok (f (get_piece s i))) -> CK s q = true /\ PP s q = Some (i, false)) ->
  (forall q, In q (p_snub (f (get_piece s i))) -> exists af, PP s q = Some (i, af)) ->
  (forall q, In q (p_chok (f (get_piece s i))) -> ~ In q (p_snub (f (get_piece s i)))) ->
  MInv (upd_piece s i f).
Proof.
  intros M Hr H1 H2 H3. destruct (upd_marks s i f Hr) as (U1 & U2).
  constructor; intros j q Hj; rewrite ?U1, ?U2 by exact Hj; destruct (Z.eqb_spec j i) as [->|_].
  - apply H1.
  - exact (m_ch s M j q Hj).
  - apply H2.
  - exact (m_sn s M j q Hj).
  - apply H3.
  - exact (m_dj s M j q Hj).
Qed.

Lemma upd_minv_sub s i f : MInv s ->
  (forall p, incl (p_snub (f p)) (p_snub p)) -> (forall p, incl (p_chok (f p)) (p_chok p)) -> MInv (upd_piece s i f).
Proof.
  intros M Hs Hc. apply (minv_sub s _ M); try reflexivity; intros j q _.
  - apply (upd_piece_rel (fun p p' => incl (p_snub p') (p_snub p))); auto using incl_refl.
  - apply (upd_piece_rel (fun p p' => incl (p_chok p') (p_chok p))); auto using incl_refl.
Qed.

(* a new peer record: a peer that is marked somewhere keeps its download, one in a Choked set stays choking *)
Lemma peer_minv s pe v : MInv s ->
  (forall j, 0 <= j -> In pe (CH s j) \/ In pe (SN s j) -> pe_piece v = PP s pe) ->
  (forall j, 0 <= j -> In pe (CH s j) -> pe_choking v = true) -> MInv (with_peer s pe v).
Proof.
  intros M Hp Hc. apply (minv_sub s _ M); auto; intros j q Hj Hq.
  - rewrite (proj1 (with_peer_views s pe v q)). destruct (Z.eqb_spec q pe) as [->|_]; [exact (Hp j Hj Hq)|reflexivity].
  - rewrite (proj2 (with_peer_views s pe v q)). destruct (Z.eqb_spec q pe) as [->|_]; [|reflexivity].
    rewrite (Hc j Hj Hq). symmetry. exact (proj1 (m_ch s M j pe Hj Hq)).
Qed.

Lemma unchoke_minv s pe i v : MInv s -> in_range s i = true -> PP s pe = Some (i, false) -> pe_piece v = Some (i, false) ->
  MInv (upd_piece (with_peer s pe v) i (fun p => set_marks p (p_req p) (p_snub p) (srem pe (p_chok p)))).
Proof.
  intros M Hr Ep Hv. set (f := fun p => set_marks p (p_req p) (p_snub p) (srem pe (p_chok p))).
  destruct (upd_marks s i f Hr) as (_ & U2).
  apply (peer_minv (upd_piece s i f) pe v).
  - apply upd_minv_sub; [exact M|intros p; apply incl_refl|intros p; apply incl_filter].
  - intros _ _ _. rewrite Hv. symmetry. exact Ep.
  - intros j Hj Hq. exfalso. rewrite U2 in Hq by exact Hj. destruct (Z.eqb_spec j i) as [->|Hne].
    + apply in_srem in Hq as [_ Hq]. exact (Hq eq_refl).
    + destruct (m_ch s M j pe Hj Hq) as [_ E]. congruence.
Qed.

Lemma choke_minv s pe i v : MInv s -> in_range s i = true -> PP s pe = Some (i, false) ->
  pe_piece v = Some (i, false) -> pe_choking v = true ->
  MInv (upd_piece (with_peer s pe v) i (fun p => set_marks p (p_req p) (srem pe (p_snub p)) (sadd pe (p_chok p)))).
Proof.
  intros M Hr Ep Hv Hc. pose proof (proj1 (proj1 (in_range_spec s i) Hr)) as Hi.
  assert (M1 : MInv (with_peer s pe v)) by (apply peer_minv; [exact M|intros _ _ _; rewrite Hv; symmetry; exact Ep|intros _ _ _; exact Hc]).
  apply upd_minv; [exact M1|exact Hr| | |]; cbn [set_marks p_chok p_snub]; intros q Hq.
  - apply in_sadd in Hq as [->|Hq]; [|exact (m_ch _ M1 i q Hi Hq)].
    destruct (with_peer_views s pe v pe) as [-> ->]. rewrite Z.eqb_refl. split; assumption.
  - apply in_srem in Hq as [Hq _]. exact (m_sn _ M1 i q Hi Hq).
  - intros Hs. apply in_srem in Hs as [Hs Hne]. apply in_sadd in Hq as [->|Hq]; [exact (Hne eq_refl)|exact (m_dj _ M1 i q Hi Hq Hs)].
Qed.

Lemma snub_minv s pe i af : MInv s -> in_range s i = true -> PP s pe = Some (i, af) -> ~ In pe (CH s i) ->
  MInv (upd_piece s i (fun p => set_marks p (p_req p) (sadd pe (p_snub p)) (p_chok p))).
Proof.
  intros M Hr Ep Em. pose proof (proj1 (proj1 (in_range_spec s i) Hr)) as Hi.
  apply upd_minv; [exact M|exact Hr| | |]; cbn [set_marks p_chok p_snub]; intros q Hq.
  - exact (m_ch s M i q Hi Hq).
  - apply in_sadd in Hq as [->|Hq]; [eauto|exact (m_sn s M i q Hi Hq)].
  - intros Hs. apply in_sadd in Hs as [->|Hs]; [exact (Em Hq)|exact (m_dj s M i q Hi Hq Hs)].
Qed.

(* a new download of an idle peer (the state is [assign_piece] of PickerWs.v): the peer was marked nowhere *)
Lemma assign_minv s pe i af : PInv s -> MInv s -> Dl s pe = false ->
  let P := get_peer (peers s) pe in
  MInv (with_peer (upd_piece s i (fun p => set_marks p (sadd pe (p_req p)) (p_snub p) (p_chok p))) pe
          {| pe_choking := pe_choking P; pe_downloading := true; pe_af := pe_af P; pe_piece := Some (i, af) |}).
Proof.
  intros I M Hdl P. pose proof (pe_unmarked s pe M (dl_false_pp_none s pe I Hdl)) as Hun.
  apply (upd_minv_sub (with_peer s pe _) i _); [|intros p; apply incl_refl|intros p; apply incl_refl].
  apply peer_minv; [exact M| |]; intros j Hj Hq; destruct (Hun j Hj); auto.
Qed.

Lemma close_dl_minv s pe : PInv s -> MInv s -> MInv (close_dl s pe).
Proof.
  intros I M. unfold close_dl. fold (PP s pe). destruct (PP s pe) as [[i af]|] eqn:Ep; [|exact M].
  destruct (pp_in_range s pe i af I Ep) as [_ Hr]. unfold cancel_download.
  set (f := fun p => set_marks p (srem pe (p_req p)) (srem pe (p_snub p)) (srem pe (p_chok p))).
  destruct (upd_marks s i f Hr) as (U1 & U2).
  (* afterwards pe is marked nowhere: not on piece i, and it was marked on no other *)
  assert (Hun : forall j, 0 <= j -> ~ (In pe (CH (upd_piece s i f) j) \/ In pe (SN (upd_piece s i f) j))).
  { intros j Hj. rewrite U1, U2 by exact Hj. destruct (Z.eqb_spec j i) as [->|Hne].
    - cbn [f set_marks p_snub p_chok]. rewrite !in_srem. tauto.
    - intros [Hq|Hq]; [destruct (m_ch s M j pe Hj Hq) as [_ E]|destruct (m_sn s M j pe Hj Hq) as [a E]]; congruence. }
  apply peer_minv.
  - apply upd_minv_sub; [exact M|intros p; apply incl_filter|intros p; apply incl_filter].
  - intros j Hj Hq. destruct (Hun j Hj Hq).
  - intros j Hj Hq. destruct (Hun j Hj (or_introl Hq)).
Qed.

(* the disconnect of a peer whose download has been closed *)
Lemma disconnect_minv s pe : MInv s -> PP s pe = None -> MInv (forget_peer (handle_disconnect s pe) pe).
Proof.
  intros M Hn. apply (minv_sub s _ M); intros j q Hj Hq.
  - apply (disconnect_marks s pe j q), Hq.
  - apply (disconnect_marks s pe j q), Hq.
  - unfold PP. rewrite get_peer_disconnect. destruct (Z.eqb_spec q pe) as [->|_]; [symmetry; exact Hn|reflexivity].
  - unfold CK. rewrite get_peer_disconnect. destruct (Z.eqb_spec q pe) as [->|_]; [|reflexivity].
    destruct (proj2 (disconnect_marks s pe j pe) Hq) as [_ N]. destruct (N eq_refl).
Qed.

Theorem pstep_minv s o s' : PInv s -> MInv s -> pstep s o = Some s' -> MInv s'.
Proof.
  intros I M H. destruct o as [pe i|pe i|pe|pe|pe|pe obs|pe|pe|i|i ok]; cbn [pstep] in H.
  9,10: destruct (in_range s i); [|discriminate]; injection H as <-; apply upd_minv_sub; auto using incl_refl.
  - destruct (in_range s i); [|discriminate]. injection H as <-. unfold handle_have.
    destruct (mem pe (p_having (get_piece s i))); [exact M|].
    apply (minv_ext (upd_piece s i (fun p => set_having p (p_having p ++ [pe])))); try reflexivity.
    apply upd_minv_sub; auto using incl_refl.
  - destruct (in_range s i); [|discriminate]. injection H as <-. apply peer_minv; [exact M|reflexivity|].
    intros j Hj Hq. exact (proj1 (m_ch s M j pe Hj Hq)).
  - set (P := get_peer (peers s) pe) in *. destruct (pe_piece P) as [[i [|]]|] eqn:Ep; injection H as <-.
    (* an allowed-fast download (1) and no download (3) carry no Choked mark; 2 is the plain download *)
    1,3: apply peer_minv; [exact M|intros _ _ _; symmetry; exact Ep|]; intros j Hj Hq;
         destruct (m_ch s M j pe Hj Hq) as [_ E]; unfold PP in E; fold P in E; congruence.
    destruct (pp_in_range s pe i false I Ep) as [_ Hr]. apply unchoke_minv; auto.
  - set (P := get_peer (peers s) pe) in *. destruct (pe_piece P) as [[i [|]]|] eqn:Ep; injection H as <-.
    1,3: apply peer_minv; [exact M|intros _ _ _; symmetry; exact Ep|reflexivity].
    destruct (pp_in_range s pe i false I Ep) as [_ Hr]. apply choke_minv; auto.
  - destruct (pe_piece (get_peer (peers s) pe)) as [[i af]|] eqn:Ep; [|injection H as <-; exact M].
    destruct (pe_choking _); [injection H as <-; exact M|].
    destruct (mem pe (p_chok (get_piece s i))) eqn:Em; [discriminate|]. injection H as <-. apply mem_false in Em.
    destruct (pp_in_range s pe i af I Ep) as [_ Hr]. exact (snub_minv s pe i af M Hr Ep Em).
  - assert (Meg : forall eg, MInv (with_endgame s eg)) by (intros eg; revert M; apply minv_ext; reflexivity).
    apply pick_check_some in H as [->|(i & af & El & ->)]; [apply Meg|].
    destruct (pick_sound s pe i af El) as (_ & _ & _ & _ & Hdl & _).
    apply (assign_minv (with_endgame s _)); [revert I; apply pinv_ext; reflexivity|apply Meg|exact Hdl].
  - injection H as <-. apply close_dl_minv; assumption.
  - injection H as <-. apply disconnect_minv; [apply close_dl_minv; assumption|]. rewrite close_dl_PP, Z.eqb_refl. reflexivity.
Qed.

Lemma init_minv ps seq md : Forall (fun p => p_snub p = [] /\ p_chok p = []) ps -> MInv (init_picker ps seq md).
Proof.
  intros H.
  assert (E : forall i, SN (init_picker ps seq md) i = [] /\ CH (init_picker ps seq md) i = [])
    by (intros i; apply (init_piece (fun p => p_snub p = [] /\ p_chok p = [])); [exact H|split; reflexivity]).
  constructor; intros i pe _ Hin; destruct (E i) as [E1 E2]; [rewrite E2 in Hin|rewrite E1 in Hin|rewrite E2 in Hin]; destruct Hin.
Qed.

(* C09: in every reachable state the Choked and Snubbed marks of a piece name only peers that are
   downloading that piece (so Snubbed and Choked are subsets of Requested), a peer marked Choked is
   choking us and its download is not an allowed-fast one, no peer is in both sets, and the assertion
   "peer snubbed while choked" of HandleSnubbed cannot fire *)
Theorem reachable_marks ps seq md ops s : Forall (fun p => p_req p = [] /\ p_snub p = [] /\ p_chok p = []) ps ->
  run_ops (init_picker ps seq md) ops = Some s ->
  MInv s /\
  (forall i pe, 0 <= i -> In pe (CH s i) \/ In pe (SN s i) -> In pe (R s i)) /\
  (forall pe, pstep s (OSnub pe) <> None).
Proof.
  intros H0 Hrun.
  assert (IM : PInv s /\ MInv s).
  { refine (run_ops_inv (fun s => PInv s /\ MInv s) _ ops _ s _ Hrun).
    - intros s0 o s1 [I M] E. split; [exact (pstep_inv s0 o s1 I E)|exact (pstep_minv s0 o s1 I M E)].
    - split; [apply init_inv|apply init_minv]; (eapply Forall_impl; [|exact H0]); intros p (A & B & C); auto. }
  destruct IM as [I M]. split; [exact M|]. split; [|intros pe; apply snub_no_panic; exact M].
  intros i pe Hi [Hc|Hs].
  - destruct (m_ch s M i pe Hi Hc) as [_ E]. apply (inv_c s I pe i false E).
  - destruct (m_sn s M i pe Hi Hs) as [af E]. apply (inv_c s I pe i af E).
Qed.
