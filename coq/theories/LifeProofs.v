(* C04 on the lifecycle model of the repaired code: for every sequence of commands, worker results
   (in any order relative to the commands) and disk changes, the client does not crash, Seeding
   implies a bitfield of all ones, Stopped (and Stopping) imply no open data file, a verify request
   is never pending while the torrent runs.  The pinned code is refuted by witnesses.

   The invariant [LInv] says that the torrent is in one of five phases (Stopped, Stopping,
   Allocating, Verifying, Running), each of which fixes the flags and the counts of open files;
   [shape] lists them as explicit states.  A handler is then checked phase by phase on concrete
   flags: the states it passes through on the way need no invariant of their own. *)
From RainV Require Import Lib Life.

Record LInv (s : life) : Prop := {
  li_crash : crashed s = false;
  li_closed : complC_closed s = completed s;
  li_compl : completed s = true -> match bf s with Some b => all_true b = true | None => alloc s = true \/ verif s = true \/ started s = false \/ stopping s = true end;
  li_stop : started s = false \/ stopping s = true -> has_pieces s = false /\ alloc s = false /\ verif s = false;
  li_run : started s = true -> stopping s = false -> alloc s = false -> verif s = false -> has_pieces s = true /\ bf s <> None /\ do_verify s = false;
  li_held : held s = (if has_pieces s then nfiles s else 0);
  li_pend : pending s = (if alloc s then nfiles s else 0);
  li_leak : leaked s = 0;
  li_av : alloc s = true -> verif s = false /\ has_pieces s = false;
  li_vp : verif s = true -> has_pieces s = true;
  li_dv : do_verify s = true -> started s = true /\ (stopping s = true \/ bf s = None);
  li_ss : stopping s = true -> started s = true
}.

(* kept folded, so that a case on [all_true b] still finds it after [cbn] *)
Local Arguments all_true : simpl never.

(* handleAllocationDone in three parts: the state in which the allocator's result is judged, the
   same with the bitfield dropped (also from the resume data), and what follows once the old bitfield
   is not trusted *)
Definition allocated (s : life) : life :=
  set s (started s) (stopping s) false (verif s) (completed s) (complC_closed s) true (bf s) (do_verify s)
      (held s + pending s) 0 (leaked s) (persisted s) (crashed s).
Definition dropped (s1 : life) : life :=
  set s1 (started s1) (stopping s1) false (verif s1) (completed s1) (complC_closed s1) true None (do_verify s1)
      (held s1) (pending s1) (leaked s1) None (crashed s1).
Definition after_missing (he : bool) (po : list bool) (s2 : life) : life :=
  if negb he then
    (let s3 := set s2 (started s2) (stopping s2) false (verif s2) (completed s2) (complC_closed s2) true (Some po) (do_verify s2) (held s2) (pending s2) (leaked s2) (Some po) (crashed s2) in
     let s4 := if all_true po then s3 else reset_completion true s3 in
     if do_verify s4 then do_stop true (set s4 (started s4) (stopping s4) false (verif s4) (completed s4) (complC_closed s4) true (bf s4) false (held s4) (pending s4) (leaked s4) (persisted s4) (crashed s4))
     else check_completion s4)
  else start_verifier s2.

(* by conversion; no proof unfolds [alloc_done] (rewriting under its nested lets is slow) *)
Lemma alloc_done_eq s he hm po :
  alloc_done true s he hm po =
  if negb (alloc s) then s
  else if match bf s with Some _ => negb hm | None => false end then check_completion (allocated s)
  else after_missing he po (if hm then dropped (allocated s) else allocated s).
Proof. reflexivity. Qed.

(* a state that has not crashed, leaks nothing, closed completeC exactly when it completed, and
   holds the data files open exactly while it has pieces (an allocator: while it runs) *)
Definition mk (st sp al ve co hp : bool) (b : option (list bool)) (dv : bool) (pe : option (list bool))
    (fx pk : list bool) (nf : Z) (rs : bool) : life :=
  {| started := st; stopping := sp; alloc := al; verif := ve; completed := co; complC_closed := co;
     has_pieces := hp; bf := b; do_verify := dv; held := if hp then nf else 0; pending := if al then nf else 0;
     leaked := 0; persisted := pe; fexists := fx; pok := pk; nfiles := nf; restart := rs; crashed := false |}.

(* a completed torrent that has a bitfield has a full one *)
Definition full_if (co : bool) (b : option (list bool)) : Prop :=
  co = true -> match b with Some b => all_true b = true | None => True end.

Lemma full_if_false b : full_if false b. Proof. discriminate. Qed.
Lemma full_if_none co : full_if co None. Proof. exact (fun _ => I). Qed.
Lemma full_if_true co b : all_true b = true -> full_if co (Some b). Proof. exact (fun E _ => E). Qed.

(* a verify request waits only while stopping, or with the bitfield already dropped *)
Inductive shape : life -> Prop :=
| sh_stopped co b pe fx pk nf rs : full_if co b ->
    shape (mk false false false false co false b false pe fx pk nf rs)
| sh_stopping co b dv pe fx pk nf rs : full_if co b ->
    shape (mk true true false false co false b dv pe fx pk nf rs)
| sh_alloc co b dv pe fx pk nf rs : full_if co b -> (dv = true -> b = None) ->
    shape (mk true false true false co false b dv pe fx pk nf rs)
| sh_verif co b dv pe fx pk nf rs : full_if co b -> (dv = true -> b = None) ->
    shape (mk true false false true co true b dv pe fx pk nf rs)
| sh_run co b pe fx pk nf rs : full_if co (Some b) ->
    shape (mk true false false false co true (Some b) false pe fx pk nf rs).

Lemma shape_linv s : shape s -> LInv s.
Proof.
  intros [co b ? ? ? ? ? C|co b dv ? ? ? ? ? C|co b dv ? ? ? ? ? C D|co b dv ? ? ? ? ? C D|co b ? ? ? ? ? C];
    unfold full_if in *; constructor; cbn; try reflexivity; try destruct b; intuition congruence.
Qed.

Lemma linv_shape s : LInv s -> shape s.
Proof.
  destruct s as [st sp al ve co cc hp b dv h pd lk pe fx pk nf rs cr].
  intros [A B C D F G I J K L M N]; cbn in *. subst cr cc h pd lk.
  assert (Cb : (al = true \/ ve = true \/ st = false \/ sp = true) -> full_if co b)
    by (intros T Hc; specialize (C Hc); destruct b; auto).
  assert (Dv : st = true -> sp = false -> dv = true -> b = None)
    by (intros -> -> Hd; destruct (M Hd) as (_ & [X|X]); [discriminate X|exact X]).
  destruct st, sp.
  - destruct (D (or_intror eq_refl)) as (-> & -> & ->). apply sh_stopping; auto.
  - destruct al, ve.
    + destruct (K eq_refl) as (X & _); discriminate X.
    + destruct (K eq_refl) as (_ & ->). apply sh_alloc; auto.
    + rewrite (L eq_refl). apply sh_verif; auto.
    + destruct (F eq_refl eq_refl eq_refl eq_refl) as (-> & Hb & ->). destruct b as [b|]; [|congruence].
      apply sh_run. exact C.
  - discriminate (N eq_refl).
  - destruct (D (or_introl eq_refl)) as (-> & -> & ->).
    destruct dv; [destruct (M eq_refl) as (X & _); discriminate X|]. apply sh_stopped; auto.
Qed.

Lemma shape_init fx pk nf : shape (mk false false false false false false None false None fx pk nf false).
Proof. apply sh_stopped, full_if_false. Qed.

Lemma shape_mutate s fx pk : shape s -> shape (mutate s fx pk).
Proof. intros []; cbn; constructor; assumption. Qed.

Lemma shape_reset s : shape s -> shape (reset_completion true s).
Proof. intros []; cbn; constructor; try assumption; apply full_if_false. Qed.

(* completeC is closed at most once: [completed] and [complC_closed] move together *)
Lemma shape_check s : shape s -> shape (check_completion s).
Proof.
  intros [[] [b|] ? ? ? ? ? C|[] [b|] ? ? ? ? ? ? C|[] [b|] ? ? ? ? ? ? C D|[] [b|] ? ? ? ? ? ? C D|[] b ? ? ? ? ? C];
    cbn; try (constructor; assumption).
  all: destruct (all_true b) eqn:E; cbn; constructor; try assumption; apply full_if_true, E.
Qed.

Lemma shape_stop s : shape s -> shape (do_stop true s).
Proof. intros []; cbn; [apply sh_stopped|apply sh_stopping ..]; assumption. Qed.

Lemma shape_start s : shape s -> shape (do_start true s).
Proof. intros []; cbn; [apply sh_alloc; [assumption|discriminate]|constructor; assumption ..]. Qed.

Lemma shape_start_verifier s : shape s -> started s = true -> stopping s = false -> alloc s = false ->
  verif s = false -> shape (start_verifier s).
Proof. intros [] S1 S2 S3 S4; try discriminate. cbn. apply sh_verif; [assumption|discriminate]. Qed.

Lemma shape_verify_cmd s : shape s -> shape (do_verify_cmd true s).
Proof.
  intros []; cbn; [apply sh_alloc; [apply full_if_none|reflexivity]|apply sh_stopping ..]; assumption.
Qed.

(* the stop is complete: Stopped, or started again when a verify request or a start command waited *)
Lemma shape_stopped_done s : shape s -> shape (stopped_done true s).
Proof.
  intros [| ? ? [] ? ? ? ? [] | | |]; cbn; try (constructor; assumption).
  1,2: apply sh_alloc; [apply full_if_none|reflexivity].
  apply sh_alloc; [assumption|discriminate].
Qed.

Lemma shape_verify_done s : shape s -> shape (verify_done true s).
Proof.
  intros [| | |co b [] ? ? pk ? ? C D|]; try (cbn; constructor; assumption).
  all: cbn; destruct (all_true pk) eqn:E; cbn; rewrite ?E.
  - apply sh_stopping, full_if_true, E.
  - apply sh_stopping, full_if_false.
  - apply (shape_check (mk true false false false co true (Some pk) false _ _ _ _ _)), sh_run, full_if_true, E.
  - apply sh_run, full_if_false.
Qed.

(* the allocator found files missing, or there was no bitfield to trust: if some file was there the
   verifier runs; if none was, the torrent has the padding-only pieces [po], and stops at once when a
   verify request waits *)
Lemma shape_after_missing he po co dv pe fx pk nf rs :
  shape (after_missing he po (mk true false false false co true None dv pe fx pk nf rs)).
Proof.
  destruct he; cbn; [apply sh_verif; [apply full_if_none|reflexivity]|].
  destruct (all_true po) eqn:E, dv; cbn; rewrite ?E.
  - apply sh_stopping, full_if_true, E.
  - apply (shape_check (mk true false false false co true (Some po) false _ _ _ _ _)), sh_run, full_if_true, E.
  - apply sh_stopping, full_if_false.
  - apply sh_run, full_if_false.
Qed.

Lemma shape_alloc_done s he hm po : shape s -> shape (alloc_done true s he hm po).
Proof.
  intros H. rewrite alloc_done_eq. destruct H as [| |co b dv ? ? ? ? ? C D| |]; cbn [alloc mk negb]; try (constructor; assumption).
  destruct b as [b|], hm; cbn [bf mk negb]; try apply shape_after_missing.
  destruct dv; [discriminate (D eq_refl)|]. apply shape_check, sh_run, C.
Qed.

Lemma shape_piece_written s i : shape s -> status s = 1 ->
  match bf s with Some b => nth (Z.to_nat i) b true = false | None => True end -> shape (piece_written s i).
Proof.
  intros [| | | |[] b ? ? ? ? ? C] S Hb; try discriminate S. unfold piece_written. cbn in *. rewrite Hb. cbn.
  destruct (all_true (setb b (Z.to_nat i) true)) eqn:E; cbn; apply sh_run; [apply full_if_true, E|apply full_if_false].
Qed.

Lemma shape_persist s : shape s ->
  shape match bf s with
        | Some b => set s (started s) (stopping s) (alloc s) (verif s) (completed s) (complC_closed s) (has_pieces s) (bf s)
                        (do_verify s) (held s) (pending s) (leaked s) (Some b) (crashed s)
        | None => s
        end.
Proof. intros [? [] | ? [] | ? [] | ? [] |]; cbn; constructor; assumption. Qed.

Lemma linv_reset s : LInv s -> (match bf s with Some _ => True | None => alloc s = true \/ verif s = true \/ started s = false \/ stopping s = true end) ->
  LInv (reset_completion true s).
Proof. intros H _. apply shape_linv, shape_reset, linv_shape, H. Qed.

Lemma linv_start_verifier s : LInv s -> started s = true -> stopping s = false -> alloc s = false -> verif s = false -> has_pieces s = true ->
  LInv (start_verifier s).
Proof. intros H S1 S2 S3 S4 _. apply shape_linv, shape_start_verifier; [apply linv_shape, H|assumption ..]. Qed.
