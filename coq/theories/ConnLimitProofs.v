(* The connections of a torrent stay within MaxPeerDial and MaxPeerAccept along every history, and a stop
   leaves none behind. *)
From RainV Require Import Lib ConnLimit.
From Coq Require Import ZifyBool.

Definition CInv (md ma : Z) (s : cl) : Prop :=
  0 <= c_addrs s /\ 0 <= c_oh s /\ 0 <= c_op s /\ 0 <= c_ih s /\ 0 <= c_ip s /\
  c_oh s + c_op s <= md /\ c_ih s + c_ip s <= ma.

Lemma dial_inv md ma : forall fuel s, CInv md ma s -> CInv md ma (dial fuel md s).
Proof.
  induction fuel as [|f IH]; intros s H; cbn [dial]; [exact H|].
  destruct ((c_oh s + c_op s <? md) && (0 <? c_addrs s)) eqn:E; [|exact H].
  apply IH. unfold CInv in *. cbn. lia.
Qed.

Lemma cstep_inv md ma s e : 0 <= md -> 0 <= ma -> (match e with CAdd n => 0 <= n | _ => True end) -> CInv md ma s -> CInv md ma (cstep md ma s e).
Proof.
  intros Hmd Hma He H. destruct e; cbn [cstep].
  (* every handler but stop and start has one guard, and leaves the state alone when it fails *)
  1-8: match goal with |- context [if ?b then _ else _] => destruct b eqn:E; [|exact H] end.
  all: try apply dial_inv; unfold CInv in *; cbn; lia.
Qed.

(* for every history of address batches, handshake results, incoming connections, disconnects, stops and
   starts: the outgoing connections (handshaking + established) never exceed MaxPeerDial and the incoming
   ones never exceed MaxPeerAccept *)
Theorem connection_limits_hold md ma evs : 0 <= md -> 0 <= ma ->
  Forall (fun e => match e with CAdd n => 0 <= n | _ => True end) evs ->
  CInv md ma (fold_left (cstep md ma) evs cl_init).
Proof.
  intros Hmd Hma Hf. apply (fold_left_inv_Forall _ (CInv md ma) _) with (2 := Hf).
  - intros s e H He. apply cstep_inv; assumption.
  - unfold CInv; cbn; lia.
Qed.

(* a stop leaves no connection, no handshake and no address behind *)
Lemma stop_clears md ma s : obs_cl (cstep md ma s CStop) = [0; 0; 0; 0; 0].
Proof. reflexivity. Qed.

(* the dialer does not leave a slot unused while an address waits *)
Lemma dial_uses_slots md : forall fuel s, Z.of_nat fuel >= c_addrs s -> 0 <= c_addrs s ->
  let s' := dial fuel md s in c_oh s' + c_op s' >= md \/ c_addrs s' = 0.
Proof.
  induction fuel as [|f IH]; intros s Hf Ha; cbn [dial]; cbv zeta; [right; lia|].
  destruct ((c_oh s + c_op s <? md) && (0 <? c_addrs s)) eqn:E; [|lia].
  apply IH; cbn; lia.
Qed.
